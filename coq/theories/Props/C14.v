(* C14 -- Backup sync uploads a gap-free chain and treats the backup as authoritative.  ONLY statements.
   Model/Backup.v: [backup_decide] = the per-database decision of streamBackupDB; [svc_write] = the
   service's contiguity check; [sync] = one sync of one database (decide, upload or restore);
   [SvcChain s]: the files the service holds, starting from nothing, form one gap-free linked chain that
   ends at its position.  Positions are (TXID, checksum); the compaction of a range keeps the first
   file's start and the last file's end.  Uploads that fail half-way leave the service unchanged
   (temporary file + rename in the client; not modelled further). *)
From Coq Require Import NArith List.
Require Import LF.Model.PageDB LF.Model.Repl LF.Model.Backup LF.Proofs.BackupProofs.
Import ListNotations.
Local Open Scope N_scope.

(* gap-free: whatever a sync does, the service is untouched or extended by one file that continues its chain *)
Theorem C14_service_only_extends : forall b,
  b_svc (fst (sync b)) = b_svc b \/
  exists f, svc_write (b_svc b) f = Some (b_svc (fst (sync b))) /\ snd (sync b) = OUploaded.
Proof. exact sync_service. Qed.
Theorem C14_chain_kept : forall b, SvcChain (b_svc b) -> SvcChain (b_svc (fst (sync b))).
Proof. exact sync_keeps_chain. Qed.
Theorem C14_send_spec : forall ex lpos dir rpos lo hi, backup_decide ex lpos dir rpos = BSend lo hi ->
  ex = true /\ lo = fst rpos + 1 /\ lo <= hi /\ hi <= fst lpos /\ hi < lo + max_batch /\ fst rpos < fst lpos /\
  (forall t, lo <= t <= hi -> exists f, open_ltx dir t = Some f).
Proof. exact send_spec. Qed.

(* authoritative: service ahead, same TXID with another checksum, or a needed file missing => restore, and
   the restore adopts the service's position without touching the service *)
Theorem C14_restore_cases : forall ex lpos dir rpos,
  ex = true -> is_zero rpos = false ->
  (fst lpos < fst rpos -> backup_decide ex lpos dir rpos = BRestore 2) /\
  (fst rpos = fst lpos -> snd rpos <> snd lpos -> backup_decide ex lpos dir rpos = BRestore 3) /\
  (fst rpos < fst lpos -> (exists t, fst rpos < t <= N.min (fst lpos) (fst rpos + max_batch) /\ open_ltx dir t = None) ->
     backup_decide ex lpos dir rpos = BRestore 4).
Proof. exact restore_cases. Qed.
(* ... in particular a primary whose database is still empty (the application has opened the file and written nothing)
   while the service holds data: the service is ahead, its copy is adopted *)
Theorem C14_empty_local_adopts : forall dir rpos, 0 < fst rpos -> backup_decide true (0, 0) dir rpos = BRestore 2.
Proof. exact empty_local_adopts. Qed.
Theorem C14_restore_adopts : forall b r,
  backup_decide (b_exists b) (b_lpos b) (b_dir b) (s_pos (b_svc b)) = BRestore r ->
  is_zero (s_pos (b_svc b)) = false ->
  b_lpos (fst (sync b)) = s_pos (b_svc b) /\ b_svc (fst (sync b)) = b_svc b /\ snd (sync b) = ORestored.
Proof. exact restore_adopts. Qed.

(* the published high-water mark never exceeds what the service acknowledged *)
Theorem C14_hwm_acknowledged : forall b,
  b_hwm b <= fst (s_pos (b_svc b)) -> b_hwm (fst (sync b)) <= fst (s_pos (b_svc (fst (sync b)))).
Proof. exact sync_hwm. Qed.

(* repeated syncs on an idle primary: with the service on the primary's history at transaction r, n syncs
   bring it to min(l, r + 256 n); once l <= r + 256 n it is at the primary's position (and stays) *)
Theorem C14_sync_converges : forall (h : N -> N) (dir : list ltxrec) (l : N),
  (forall t, 1 <= t <= l -> exists f, open_ltx dir t = Some f /\ l_pre f = h (t - 1) /\ l_post f = h t) ->
  1 <= l -> forall n b, on_history h dir l b ->
  on_history h dir l (sync_n n b) /\
  fst (s_pos (b_svc (sync_n n b))) = N.min l (fst (s_pos (b_svc b)) + max_batch * N.of_nat n).
Proof. exact sync_converges. Qed.
Theorem C14_sync_reaches_primary : forall (h : N -> N) (dir : list ltxrec) (l : N),
  (forall t, 1 <= t <= l -> exists f, open_ltx dir t = Some f /\ l_pre f = h (t - 1) /\ l_post f = h t) ->
  1 <= l -> forall n b, on_history h dir l b -> l <= fst (s_pos (b_svc b)) + max_batch * N.of_nat n ->
  s_pos (b_svc (sync_n n b)) = (l, h l).
Proof. exact sync_reaches_primary. Qed.

Example C14_nonvacuous :
  (sync_obs true (5, 50) [(3,3,20,30); (4,4,30,40); (5,5,40,50)] (2, 20) 2,
   sync_obs true (5, 50) [(4,4,30,40); (5,5,40,50)] (2, 20) 2,
   sync_obs true (5, 50) [(5,5,40,50)] (7, 70) 2,
   sync_obs true (5, 50) [] (0, 0) 0,
   sync_obs true (5, 50) [(3,3,21,30); (4,4,30,40); (5,5,40,50)] (2, 20) 2)
  = ([2; 5; 50; 5; 50; 5], [3; 2; 20; 2; 20; 2], [3; 7; 70; 7; 70; 2], [2; 5; 50; 5; 50; 5], [3; 2; 20; 2; 20; 2]).
Proof. vm_compute. reflexivity. Qed.

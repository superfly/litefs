(* C01 -- A replica at position (TXID, checksum) is byte-identical to the primary there.
   ONLY statements.

   Safety is stated against the ghost map [world : position -> image] ("the primary's database as
   it stood when it committed (t, c)").  That such a map exists -- a position determines an image
   across all nodes of the history -- is LiteFS's design premise (XOR-of-CRC64 collisions are
   assumed away); it is the hypothesis NoCollision of DESIGN.md and is NOT provable.
   Under it:
     * every file in a primary's log is a true delta of the world (C02/C03 exactness, proved there),
     * the primary sends an incremental file only on top of exactly the position it was built
       from (C06), so a replica holding world(pos) holds world(pos') after applying it (below),
     * otherwise it sends a snapshot, whose pages are those of world(primary pos) (C10).
   Liveness is proved as a bound on the number of stream iterations (no wall-clock statement).
   The kernel page cache is exercised by the harness with a simulated cache fed only by the
   Invalidator callbacks; it is not part of the model.
   WITHOUT that premise, for rollback-journal histories (C01_follower_identical): a follower
   that is sent, step by step, the files a primary's log gains holds, at every page number of the
   database but the lock page, the page the primary's database file holds there ([fpg]: zero_pg
   where a file holds none), at the same position - for every history from empty nodes.
   The argument is about contents, not checksums: a page that is not in a transaction's file was
   not in the dirty set, hence is what it was (SameM), hence what the follower already has.
   In the model a page is its CRC64 value H(pgno, bytes) and the header fields of page 1 (PageDB.v), so
   "the same page" is equality of per-page hashes: these theorems do not assume that the XOR of them
   over a database does not collide; they do assume that a single page's CRC does not.
   And on into WAL mode (C01_follower_identical_wal): after the switch, through WAL commits and
   checkpoints of every kind, the follower's file is the primary's LOGICAL database - the last
   committed version of a page in the primary's log, else the primary's file. *)
From Coq Require Import NArith List.
Require Import LF.Model.PageDB LF.Model.Repl LF.Proofs.ChainProofs LF.Proofs.ReplProofs LF.Proofs.ChecksumProofs
  LF.Proofs.HistoryProofs LF.Proofs.SqlCheckpointProofs LF.Proofs.ApplyHistoryProofs LF.Proofs.ComposeProofs
  LF.Proofs.FollowProofs LF.Proofs.FollowWalProofs LF.Proofs.FollowGProofs LF.Proofs.FollowRestartProofs
  LF.Proofs.JoinerProofs.
Require Import LF.Proofs.WalCheck LF.Proofs.HistoryCheck.
Import ListNotations.
Local Open Scope N_scope.

Theorem C01_incremental_keeps_image : forall lock (world : pos -> image) ppos dir cpos f (rimg rimg' : image),
  stream_decide ppos dir cpos = ASendLTX f ->
  (forall g, In g dir -> delta lock g (world (l_min g - 1, l_pre g)) (world (l_max g, l_post g))) ->
  (forall p, 1 <= p -> p <> lock -> rimg p = world cpos p) ->
  delta lock f rimg rimg' ->
  img_eq lock (l_commit f) rimg' (world (l_max f, l_post f)).
Proof. exact incremental_keeps_image. Qed.

(* the stream loop against a quiescent primary ends after at most (primary TXID - client TXID) + 1
   iterations (incremental files one TXID at a time, or one snapshot), for every client position *)
Theorem C01_convergence_steps : forall ppos dir,
  (forall f, In f dir -> l_max f = fst ppos -> l_post f = snd ppos) ->
  forall fuel cpos, (length (stream_db fuel ppos dir cpos) <= N.to_nat (fst ppos - fst (effective_client ppos cpos)) + 1)%nat.
Proof. exact stream_db_bound. Qed.

(* the replica-side apply is the one whose chain/position behaviour is proved in C09 *)
Theorem C01_receive_sets_position : forall s f s',
  op_receive s f = (Done, s') -> txid s' = l_max f /\ chk s' = l_post f /\ pageN s' = l_commit f.
Proof.
  intros s f s' H. destruct (apply_done _ f true s' (proj2 (receive_done s f s' H))) as [A [B [C _]]]. auto.
Qed.

(* Primary and follower, both starting empty.  [hs]: any rollback-journal history of the primary ([wf_hist]: what SQLite's pager
   guarantees, as in C04_journal_history).  [follow] runs it step by step; after each step the follower is sent the files the
   primary's log gained in it ([new_files]; [run_recv] is processLTXStreamFrame: position check, placement, apply with its
   checksum verification - a follower that exits has no final state).  [fpg s p]: the page the database file of s holds at number p, zero_pg where it
   holds none (the statement does not bound the length of either file).  A page of the model is its CRC64 value and the
   header fields of page 1, so the equality is one of per-page hashes, not of bytes.
   For EVERY such history: the follower is at the primary's position and its file holds what the primary's holds on every
   page of the database but the lock page.  Nothing is assumed about checksums. *)
Theorem C01_follower_identical : forall lock hs sP sR,
  1 <= lock -> wf_hist (init lock) hs -> follow (init lock) (init lock) hs = Some (sP, sR) ->
  txid sR = txid sP /\ chk sR = chk sP /\ pageN sR = pageN sP /\
  (forall p, 1 <= p <= pageN sP -> p <> lock -> fpg sR p = fpg sP p).
Proof. exact follower_identical. Qed.
Print Assumptions C01_follower_identical.

(* Non-vacuity: create 2 pages; grow to 5 writing only pages 1 and 5 (3 and 4 are gaps the file system fills); a transaction
   that spills pages 2 and 7 and is rolled back; shrink to 3 and truncate - four files reach the follower *)
Example C01_follower_identical_nonvacuous :
  let pg h := mkPg (fl h) 0 false in
  let hs := [HTx [] [AWrite 1 (pg 11); AWrite 2 (pg 12)] 2;
             HTx [(3, pg 33); (4, pg 44)] [AWrite 1 (pg 21); AWrite 5 (pg 55)] 5;
             HTx [] [AWrite 2 (pg 77); AWrite 7 (pg 70); AWrite 2 (pg 12); ACut] 5;
             HTx [] [AWrite 2 (pg 92)] 3; HTrunc 3] in
  wf_hist (init 2097153) hs /\
  match follow (init 2097153) (init 2097153) hs with
  | Some (sP, sR) => (txid sR, pageN sR, chk sR =? chk sP, map (fpg sR) [1; 2; 3], lenN (dbfile sR), length (ltxdir sP))
                     = (4, 3, true, [pg 21; pg 92; pg 33], 3, 4%nat)
  | None => False
  end.
Proof. cbn zeta. split; [apply wf_hist_checked|]; vm_compute; reflexivity. Qed.

(* Into WAL mode.  As above, then the rollback-journal transaction that switches the primary to WAL mode (its file reaches the
   follower), then [os]: WAL commits, LiteFS checkpoints, pages copied by SQLite, SQLite's complete checkpoint with the restart
   of the log, in any order ([wf_wops2] as in C04_wal_full_history) - the follower being sent after each step what the
   primary's log gained ([followw]).  [lpage s p]: the primary's logical page - the last committed version of p in its log
   ([wpages]), else what its database file holds.  For EVERY such history the follower is at the primary's position and its
   database file holds ([fpg]) the primary's logical page at every page number of the database but the lock page.  Nothing is
   assumed about checksums. *)
Theorem C01_follower_identical_wal : forall lock hs zf acts c os s1 r1 s2 r2 sP sR,
  1 <= lock -> wf_hist (init lock) hs -> follow (init lock) (init lock) hs = Some (s1, r1) ->
  wf_tx_any s1 zf acts -> run_group s1 (hops s1 (HTx zf acts c)) = (0, s2) -> wal_mode s2 = true ->
  run_recv r1 (new_files s1 s2) = Some r2 ->
  wf_wops2 s2 os -> followw s2 r2 (file_h s2) os = Some (sP, sR) ->
  txid sR = txid sP /\ chk sR = chk sP /\ pageN sR = pageN sP /\
  (forall p, 1 <= p <= pageN sP -> p <> lock -> fpg sR p = lpage sP p).
Proof. exact follower_identical_wal. Qed.
Print Assumptions C01_follower_identical_wal.

(* Non-vacuity: at the end of this history the primary's database file is behind its log (page 1 is an older version, page 3
   is not there yet) and the follower's file is the logical database *)
Example C01_follower_identical_wal_nonvacuous :
  let pg h := mkPg (fl h) 0 false in
  let pw h := mkPg (fl h) 0 true in
  let hs := [HTx [] [AWrite 1 (pg 11); AWrite 2 (pg 12)] 2] in
  let sw := [AWrite 1 (pw 13)] in
  let os := [W2Commit [(2, pw 22); (3, pw 33); (2, pw 23)] 3; W2BackfillOld 2 (pw 22); W2Commit [(1, pw 14)] 2; W2Checkpoint;
             W2Commit [(3, pw 35); (1, pw 15)] 3] in
  exists s1 r1 s2 r2,
    wf_hist (init 2097153) hs /\ follow (init 2097153) (init 2097153) hs = Some (s1, r1) /\
    wf_tx_any s1 [] sw /\ run_group s1 (hops s1 (HTx [] sw 2)) = (0, s2) /\ wal_mode s2 = true /\
    run_recv r1 (new_files s1 s2) = Some r2 /\ wf_wops2 s2 os /\
    match followw s2 r2 (file_h s2) os with
    | Some (sP, sR) => (txid sR, pageN sR, chk sR =? chk sP, map (fpg sR) [1; 2; 3], map (lpage sP) [1; 2; 3], map (fpg sP) [1; 2; 3])
                       = (5, 3, true, [pw 15; pw 23; pw 35], [pw 15; pw 23; pw 35], [pw 14; pw 23; zero_pg])
    | None => False
    end.
Proof.
  cbn zeta. do 4 eexists. split; [apply wf_hist_checked; vm_compute; reflexivity|]. split; [vm_compute; reflexivity|].
  split; [apply wf_tx_any_b_sound; vm_compute; reflexivity|]. split; [vm_compute; reflexivity|]. split; [reflexivity|].
  split; [vm_compute; reflexivity|]. split; [apply wf_wops2_checked|]; vm_compute; reflexivity.
Qed.

(* Over the steps of C04_history.  [gs]: any list of them the journal mode allows ([wf_fgsteps] = [wf_gsteps], and no
   restart of the primary itself): rollback-journal transactions, truncates, the switch, WAL commits, checkpoints of every
   kind, the way back out of WAL mode, files that reach the node from the stream or are forwarded to it under the halt lock,
   drops, imports.  [followg]: after each step the follower is sent what the step publishes ([sent]: the files the log
   gained; for a received or forwarded file, that file).  For EVERY such history from empty nodes: the follower is at the
   primary's position and its database file holds ([fpg]) the primary's logical page at every page number of the database but
   the lock page.  Nothing is assumed about checksums. *)
Theorem C01_follower_history : forall lock gs sP sR,
  1 <= lock -> wf_fgsteps (init lock) gs -> followg (init lock) (init lock) (fun _ => 0) gs = Some (sP, sR) ->
  txid sR = txid sP /\ chk sR = chk sP /\ pageN sR = pageN sP /\
  (forall p, 1 <= p <= pageN sP -> p <> lock -> fpg sR p = lpage sP p).
Proof. exact follower_identical_g. Qed.
Print Assumptions C01_follower_history.

(* Non-vacuity: a failed and repeated finalisation; the switch; two WAL transactions; SQLite's complete checkpoint; the way back;
   a rollback-journal transaction; a file from the stream applied, a stray one refused; a forwarded transaction refused,
   one applied; a drop; an import - ten files reach the follower *)
Example C01_follower_history_nonvacuous :
  let pg h n := mkPg (fl h) n false in
  let pw h n := mkPg (fl h) n true in
  let x3 a b c := fl (N.lxor (N.lxor (fl a) (fl b)) (fl c)) in
  let gs := [GJ (HTx [] [AWrite 1 (pg 11 2); AWrite 2 (pg 19 0); AFail 2; AWrite 2 (pg 12 0)] 2);
             GSwitch [] [AWrite 1 (pw 13 2)] 2;
             GW (W2Commit [(1, pw 14 3); (3, pw 33 0); (2, pw 23 0)] 3);
             GW (W2Commit [(2, pw 24 0)] 3);
             GW W2SqlRestart;
             GLeave (pg 15 3) 3;
             GJ (HTx [] [AWrite 3 (pg 36 0)] 3);
             GRecv (mkLtx 7 7 (x3 15 24 36) (x3 15 27 36) 3 [(2, pg 27 0)]);
             GRecv (mkLtx 9 9 0 0 1 []);
             GForward (mkLtx 8 8 0 0 1 []) true;
             GForward (mkLtx 8 8 (x3 15 27 36) (x3 18 27 36) 3 [(1, pg 18 3)]) true;
             GDrop;
             GImport [(1, pg 41 2); (2, pg 42 0)] 2] in
  wf_fgsteps (init 2097153) gs /\
  match followg (init 2097153) (init 2097153) (fun _ => 0) gs with
  | Some (sP, sR) => (txid sR, pageN sR, chk sR =? chk sP, map (fpg sR) [1; 2], map (lpage sP) [1; 2], length (ltxdir sR))
                     = (10, 2, true, [pg 41 2; pg 42 0], [pg 41 2; pg 42 0], 10%nat)
  | None => False
  end.
Proof.
  cbn zeta. split; [|vm_compute; reflexivity].
  apply wf_fgsteps_of_gsteps; [apply wf_gsteps_checked; vm_compute; reflexivity|repeat constructor].
Qed.

(* The late joiner.  [snapshot_file s]: the file that starts at TXID 1, names the node's position and size, and holds what
   readPage returns for every page of the database but the lock page (the log's index, else the database file) - what
   WriteSnapshotTo streams.  For EVERY history of the primary into and through WAL mode (as in C04_wal_full_history): a node
   that starts empty and applies that snapshot is at the primary's position and its database file holds ([fpg]) the primary's
   logical page at every page number of the database but the lock page.  Nothing is assumed about checksums (the snapshot is taken on a quiescent primary; the
   interleaved case is C10). *)
Theorem C01_late_joiner : forall lock hs zf acts c os s1 s2 s' v' sR,
  1 <= lock -> wf_hist (init lock) hs -> run_hsteps (init lock) hs = Some s1 ->
  wf_tx_any s1 zf acts -> run_group s1 (hops s1 (HTx zf acts c)) = (0, s2) -> wal_mode s2 = true ->
  wf_wops2 s2 os -> run_wops2 s2 (file_h s2) os = Some (s', v') ->
  op_receive (init lock) (snapshot_file s') = (Done, sR) ->
  txid sR = txid s' /\ chk sR = chk s' /\ pageN sR = pageN s' /\
  (forall p, 1 <= p <= pageN s' -> p <> lock -> fpg sR p = lpage s' p).
Proof. exact late_joiner_history. Qed.
Print Assumptions C01_late_joiner.

(* Non-vacuity: the snapshot is taken while the primary's database file is behind its log; the joiner's file is the logical
   database *)
Example C01_late_joiner_nonvacuous :
  let pg h := mkPg (fl h) 0 false in
  let pw h := mkPg (fl h) 0 true in
  let hs := [HTx [] [AWrite 1 (pg 11); AWrite 2 (pg 12)] 2] in
  let sw := [AWrite 1 (pw 13)] in
  let os := [W2Commit [(2, pw 22); (3, pw 33); (2, pw 23)] 3; W2BackfillOld 2 (pw 22); W2Commit [(1, pw 14)] 2; W2Checkpoint;
             W2Commit [(3, pw 35); (1, pw 15)] 3] in
  exists s1 s2,
    wf_hist (init 2097153) hs /\ run_hsteps (init 2097153) hs = Some s1 /\
    wf_tx_any s1 [] sw /\ run_group s1 (hops s1 (HTx [] sw 2)) = (0, s2) /\ wal_mode s2 = true /\
    wf_wops2 s2 os /\
    match run_wops2 s2 (file_h s2) os with
    | Some (s', v') =>
        match op_receive (init 2097153) (snapshot_file s') with
        | (Done, sR) => (txid sR, pageN sR, chk sR =? chk s', map (fpg sR) [1; 2; 3], map (fpg s') [1; 2; 3])
                        = (5, 3, true, [pw 15; pw 23; pw 35], [pw 14; pw 23; zero_pg])
        | _ => False
        end
    | None => False
    end.
Proof. cbn zeta. apply (switch_by_check (fun s2 => wops2_by_check _ s2 (file_h s2) _)). vm_compute. auto. Qed.

(* ... and a node in ANY state - behind, ahead, diverged (C06 decides when) - that is sent a snapshot, which replaces its log
   and is applied over whatever it holds: provided the primary can read every page of its database, the node ends at the
   primary's position with the primary's logical database, whatever it held before.  Resnapshotting repairs. *)
Theorem C01_resnapshot_any_state : forall lock hs zf acts c os s1 s2 s' v' sR0 sR,
  1 <= lock -> wf_hist (init lock) hs -> run_hsteps (init lock) hs = Some s1 ->
  wf_tx_any s1 zf acts -> run_group s1 (hops s1 (HTx zf acts c)) = (0, s2) -> wal_mode s2 = true ->
  wf_wops2 s2 os -> run_wops2 s2 (file_h s2) os = Some (s', v') ->
  lockpg sR0 = lock -> (forall x, 1 <= x <= pageN s' -> x <> lock -> read_page s' x <> None) ->
  op_receive sR0 (snapshot_file s') = (Done, sR) ->
  txid sR = txid s' /\ chk sR = chk s' /\ pageN sR = pageN s' /\
  (forall p, 1 <= p <= pageN s' -> p <> lock -> fpg sR p = lpage s' p).
Proof. exact resnapshot_history. Qed.
Print Assumptions C01_resnapshot_any_state.

(* Non-vacuity: the node holds an older database (the primary's state before the switch, position 1) *)
Example C01_resnapshot_nonvacuous :
  let pg h := mkPg (fl h) 0 false in
  let pw h := mkPg (fl h) 0 true in
  let hs := [HTx [] [AWrite 1 (pg 11); AWrite 2 (pg 12)] 2] in
  let sw := [AWrite 1 (pw 13)] in
  let os := [W2Commit [(2, pw 22); (3, pw 33); (2, pw 23)] 3; W2BackfillOld 2 (pw 22); W2Commit [(1, pw 14)] 2; W2Checkpoint;
             W2Commit [(3, pw 35); (1, pw 15)] 3] in
  exists s1 s2,
    wf_hist (init 2097153) hs /\ run_hsteps (init 2097153) hs = Some s1 /\
    wf_tx_any s1 [] sw /\ run_group s1 (hops s1 (HTx [] sw 2)) = (0, s2) /\ wal_mode s2 = true /\
    wf_wops2 s2 os /\
    match run_wops2 s2 (file_h s2) os with
    | Some (s', v') =>
        (forall x, 1 <= x <= pageN s' -> x <> 2097153 -> read_page s' x <> None) /\
        match op_receive s1 (snapshot_file s') with
        | (Done, sR) => (txid s1, txid sR, pageN sR, chk sR =? chk s', map (fpg sR) [1; 2; 3], length (ltxdir sR))
                        = (1, 5, 3, true, [pw 15; pw 23; pw 35], 1%nat)
        | _ => False
        end
    | None => False
    end.
Proof.
  cbn zeta. do 2 eexists. split; [apply wf_hist_checked; vm_compute; reflexivity|]. split; [vm_compute; reflexivity|].
  split; [apply wf_tx_any_b_sound; vm_compute; reflexivity|]. split; [vm_compute; reflexivity|]. split; [reflexivity|].
  apply (wops2_by_check_with (fun s' => range_some_b 2097153 (read_page s') 0 (pageN s'))).
  - intros s'. apply range_some_b_sound1.
  - vm_compute. split; reflexivity.
Qed.

(* As C01_follower_history, the primary's own restarts included: [gs] is any history of C04_history ([wf_gsteps], nothing
   excluded; [followg] and [sent] as there).  A restart publishes nothing; that it leaves the primary's logical database
   and position alone rests on one more invariant, kept by every step: the newest transaction file names the node's
   position and size and its pages are the logical database's ([LastAgree]), so re-applying it after the checkpoint
   inside Open changes no page. *)
Theorem C01_follower_history_all : forall lock gs sP sR,
  1 <= lock -> wf_gsteps (init lock) gs -> followg (init lock) (init lock) (fun _ => 0) gs = Some (sP, sR) ->
  txid sR = txid sP /\ chk sR = chk sP /\ pageN sR = pageN sP /\
  (forall p, 1 <= p <= pageN sP -> p <> lock -> fpg sR p = lpage sP p).
Proof. exact follower_identical_all. Qed.
Print Assumptions C01_follower_history_all.

(* Non-vacuity: the history of C04_history_nonvacuous - the primary restarts in rollback-journal mode and again in WAL mode with
   its log in place *)
Example C01_follower_history_all_nonvacuous :
  let pg h n := mkPg (fl h) n false in
  let pw h n := mkPg (fl h) n true in
  let x3 a b c := fl (N.lxor (N.lxor (fl a) (fl b)) (fl c)) in
  let gs := [GJ (HTx [] [AWrite 1 (pg 11 2); AWrite 2 (pg 19 0); AFail 2; AWrite 2 (pg 12 0)] 2);
             GRestart;
             GSwitch [] [AWrite 1 (pw 13 2)] 2;
             GW (W2Commit [(1, pw 14 3); (3, pw 33 0); (2, pw 23 0)] 3);
             GRestart;
             GW (W2Commit [(2, pw 24 0)] 3);
             GW W2SqlRestart;
             GLeave (pg 15 3) 3;
             GJ (HTx [] [AWrite 3 (pg 36 0)] 3);
             GRecv (mkLtx 7 7 (x3 15 24 36) (x3 15 27 36) 3 [(2, pg 27 0)]);
             GRecv (mkLtx 9 9 0 0 1 []);
             GForward (mkLtx 8 8 0 0 1 []) true;
             GForward (mkLtx 8 8 (x3 15 27 36) (x3 18 27 36) 3 [(1, pg 18 3)]) true;
             GDrop;
             GImport [(1, pg 41 2); (2, pg 42 0)] 2] in
  wf_gsteps (init 2097153) gs /\
  match followg (init 2097153) (init 2097153) (fun _ => 0) gs with
  | Some (sP, sR) => (txid sR, pageN sR, chk sR =? chk sP, map (fpg sR) [1; 2], map (lpage sP) [1; 2], length (ltxdir sR))
                     = (10, 2, true, [pg 41 2; pg 42 0], [pg 41 2; pg 42 0], 10%nat)
  | None => False
  end.
Proof. cbn zeta. split; [apply wf_gsteps_checked|]; vm_compute; reflexivity. Qed.

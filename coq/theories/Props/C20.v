(* C20 -- Every API request gets a response; invalid requests change nothing.  ONLY statements.
   Model/Api.v: [respond q] = (status, effect) for a request abstracted to the classes the handlers
   distinguish (endpoint, method, name / id / nodeID classes, Litefs-Id = self, protocol, body usable,
   halt lock held), on a primary, a replica and a node with no primary.  [invalid q] is the property's
   side: malformed, not allowed for the role, or referring to a database, lock or node that is not
   there; it is defined without reference to [respond].  What a theorem cannot show - that the Go
   runtime really delivers the response and no handler panics or blocks - is what the harness
   observes on the real server for every request whose class it feeds to [respond]. *)
From Coq Require Import NArith List.
Require Import LF.Model.Api LF.Proofs.ApiProofs.
Import ListNotations.
Local Open Scope N_scope.

(* total: every request is answered, with one of eight statuses *)
Theorem C20_every_request_answered : forall q, In (fst (respond q)) [200; 400; 404; 405; 409; 426; 500; 503].
Proof. exact respond_status. Qed.

(* FULL STATEMENT: forall q, invalid q = true -> snd (respond q) = ENone.
   It is FALSE of the faithful model (and of the code): see C20_refuted.  What holds is the statement
   for every invalid request outside two classes. *)
Theorem C20_invalid_changes_nothing_partial : forall q,
  invalid q = true -> import_leftover q = false -> tx_poisoned q = false -> snd (respond q) = ENone.
Proof. exact invalid_no_effect. Qed.

(* the missing class, exactly: POST /import on the primary for a name that does not exist yet, with an
   unusable body - refused with 500, but the empty database it created first stays (known finding) *)
Theorem C20_refuted : exists q, invalid q = true /\ snd (respond q) <> ENone.
Proof. exact invalid_effect_refuted. Qed.
Theorem C20_refuted_class : forall q, import_leftover q = true -> invalid q = true /\ respond q = (500, ECreateDB).
Proof. exact import_leftover_spec. Qed.

(* the second class: the holder of the halt lock forwards a file that continues the primary's position and carries a
   wrong post-apply checksum - answered 500, but only after the file was put into the log and its pages into the database;
   the primary then stops itself (known finding).  Nothing else makes a node stop. *)
Theorem C20_refuted_class_forwarded : forall q, tx_poisoned q = true -> invalid q = true /\ respond q = (500, EStop).
Proof. exact tx_poisoned_spec. Qed.
Theorem C20_stop_only_when_poisoned : forall q, snd (respond q) = EStop -> tx_poisoned q = true.
Proof. exact stop_only_when_poisoned. Qed.

(* invalid requests are refused; the only 200 is the release of a lock that is not held, a no-op *)
Theorem C20_invalid_refused : forall q, invalid q = true ->
  400 <= fst (respond q) \/ (q_path q = PHalt /\ q_meth q = MDelete /\ respond q = (200, ENone)).
Proof. exact invalid_refused. Qed.

(* state changes need authority: a forwarded transaction is applied only on the primary, for the holder
   of the database's halt lock; a lock is granted only by the primary and only when none is held; it is
   released only under its id; nothing but a release acts on a non-primary (the third hypothesis of the last theorem
   excludes nothing: in the model no request makes a node promote itself, the one node that is not primary and would ask
   for the lease - the replica - not being a candidate) *)
Theorem C20_apply_needs_holder : forall q, snd (respond q) = EApplyTx ->
  q_path q = PTx /\ q_meth q = MPost /\ q_role q = RPrimary /\ q_name q = NmKnown /\ q_halted q = true /\ q_id q = IdHeld /\
  q_self q = false /\ q_body q = true.
Proof. exact apply_needs_holder. Qed.
Theorem C20_grant_needs_primary_and_free_lock : forall q, snd (respond q) = EHaltAcquire ->
  q_path q = PHalt /\ q_meth q = MPost /\ q_role q = RPrimary /\ q_self q = false /\ (q_id q = IdOther \/ q_id q = IdHeld) /\
  (q_name q = NmUnknown \/ (q_name q = NmKnown /\ q_halted q = false)).
Proof. exact grant_needs_primary_and_free_lock. Qed.
Theorem C20_release_needs_lock_id : forall q, snd (respond q) = EHaltRelease ->
  q_path q = PHalt /\ q_meth q = MDelete /\ q_name q = NmKnown /\ q_halted q = true /\ q_id q = IdHeld.
Proof. exact release_needs_lock_id. Qed.
Theorem C20_write_effects_only_on_primary : forall q,
  changes (snd (respond q)) = true -> snd (respond q) <> EHaltRelease -> snd (respond q) <> EPromote -> q_role q = RPrimary.
Proof. exact write_effects_only_on_primary. Qed.

(* the hypotheses are met and the conclusions are not trivial *)
Example C20_nonvacuous :
  (respond (mk_req RPrimary PTx MPost NmKnown IdHeld NdBad false true true true false),
   respond (mk_req RPrimary PTx MPost NmKnown IdOther NdBad false true true true false),
   respond (mk_req RReplica PHalt MPost NmKnown IdOther NdBad false false false false false),
   respond (mk_req RPrimary PHalt MDelete NmUnknown IdOther NdBad false false false false false),
   invalid (mk_req RPrimary PTx MPost NmKnown IdHeld NdBad false true true true false),
   invalid (mk_req RPrimary PTx MPost NmKnown IdOther NdBad false true true true false))
  = ((200, EApplyTx), (409, ENone), (503, ENone), (404, ENone), false, true).
Proof. vm_compute. reflexivity. Qed.

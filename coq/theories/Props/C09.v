(* C09 -- The on-disk transaction log is one contiguous, self-verifying chain.
   ONLY statements.  [Chain s]: consecutive files link (min = previous max + 1, pre-checksum =
   previous post-checksum) and the last file ends at the current position.  File integrity
   ("every file passes its own check") and file naming (temporary files are not counted) are
   properties of the bytes on disk: the harness decodes and verifies every file after every
   step and lists the directory with the same name filter (correspondence), they are not part
   of the model. *)
From Coq Require Import NArith List.
Require Import LF.Model.PageDB LF.Proofs.ChecksumProofs LF.Proofs.ChainProofs LF.Proofs.ComposeProofs
  LF.Proofs.ChainHistoryProofs LF.Proofs.ImportHistoryProofs.
Require Import LF.Proofs.HistoryCheck.
Import ListNotations.
Local Open Scope N_scope.

(* every history of local commits (both modes), drops, replicated applies, snapshots, checkpoints,
   restarts and retention sweeps keeps the chain, provided each operation completes and sweeps see
   ages that do not decrease with the TXID *)
Theorem C09_chain_invariant : forall lock ops s,
  all_ok (init lock) ops -> run_ops (init lock) ops = Some s -> Chain s.
Proof. exact chain_invariant. Qed.

Theorem C09_chain_step : forall s o s', Chain s -> ok_op s o -> step s o = (Done, s') -> Chain s'.
Proof. exact chain_step. Qed.

(* a received snapshot replaces the whole chain *)
Theorem C09_snapshot_replaces_chain : forall s f s',
  is_snapshot f = true -> op_receive s f = (Done, s') -> ltxdir s' = [f].
Proof. exact snapshot_replaces_chain. Qed.

(* retention: never the newest file; with a backup service never a file at or above the
   high-water mark; for EVERY age assignment (no monotonicity needed for these two) *)
Theorem C09_retention_keeps_newest : forall old backup hwm d z,
  d <> [] -> last (retention d old backup hwm) z = last d z.
Proof. exact retention_keeps_newest. Qed.
Theorem C09_retention_respects_hwm : forall old hwm f d,
  In f d -> hwm <= l_max f -> In f (retention d old true hwm).
Proof. exact retention_respects_hwm. Qed.
Theorem C09_retention_only_removes : forall old backup hwm f d,
  In f (retention d old backup hwm) -> In f d.
Proof. exact retention_subset. Qed.

(* Non-vacuity: three commits, a sweep that removes the two oldest files, a drop *)
Example C09_nonvacuous :
  let p n h := mkPg (fl h) (if n =? 1 then 1 else 0) false in
  run_ops (init 2097153) [OWrite 1 (p 1 1); OCommitJournal 1; OWrite 1 (p 1 2); OCommitJournal 1;
                          OWrite 1 (p 1 3); OCommitJournal 1; ORetention [true; true; true] false 0; ODrop] <> None /\
  match run_ops (init 2097153) [OWrite 1 (p 1 1); OCommitJournal 1; OWrite 1 (p 1 2); OCommitJournal 1;
                          OWrite 1 (p 1 3); OCommitJournal 1; ORetention [true; true; true] false 0; ODrop] with
  | Some s => map l_max (ltxdir s) = [3; 4] | None => False end.
Proof. vm_compute. split; [discriminate|reflexivity]. Qed.

(* over the histories of C04_history:
   [run_gsteps] is the history language of Props/C04.v: rollback-journal transactions with spills, rollbacks and failed
   finalisations, the switch to WAL mode, WAL commits, LiteFS's and SQLite's checkpoints, the way back, restarts, files
   from the stream and forwarded files (applied or refused), drops, imports.  After EVERY such history from an empty node
   the kept files link and the last one ends at the node's position - with no premise at all on the steps. *)
Theorem C09_history_chain : forall lock gs s' v',
  run_gsteps (init lock) (fun _ => 0) gs = Some (s', v') -> Chain s'.
Proof. exact g_history_chain. Qed.

(* ... and with retention sweeps (any ages, with or without a backup service, any high-water mark) at any point between
   two steps, provided each sweep sees ages that do not decrease with the transaction id ([ok_op]: what it may remove
   is a prefix of the directory) *)
Theorem C09_history_chain_with_sweeps : forall lock cs s',
  ok_csteps (init lock) cs -> run_csteps (init lock) cs = Some s' -> Chain s'.
Proof. exact c_history_chain. Qed.

(* one step of such a history from ANY state that has a chain (a restored, snapshotted or restarted node) *)
Theorem C09_history_step : forall s c s', Chain s -> cok s c -> crun s c = Some s' -> Chain s'.
Proof. exact c_chain_step. Qed.

(* a file that is not applied is either refused - nothing changes, the log included - or fatal; never a failure that
   leaves the file in the log *)
Theorem C09_refused_file_changes_nothing : forall s f ok s',
  (op_receive s f = (Failed, s') -> s' = s) /\ (op_forward s f ok = (Failed, s') -> s' = s).
Proof. intros s f ok s'. split; [exact (receive_failed_same s f s')|exact (forward_failed_same s f ok s')]. Qed.

(* the log verifies the database: after every (well-formed) history of those steps the newest file ends at the node's
   position and its post-apply checksum is the from-scratch checksum of the logical database (the database file in
   rollback-journal mode, the file overlaid with the log's committed frames [v'] in WAL mode: Props/C04.v) - the number a
   replica checks the file against is the checksum of the database itself *)
Theorem C09_history_newest_file_verifies_database : forall lock gs s' v' f rest,
  1 <= lock -> wf_gsteps (init lock) gs -> run_gsteps (init lock) (fun _ => 0) gs = Some (s', v') ->
  rev (ltxdir s') = f :: rest ->
  l_max f = txid s' /\
  (wal_mode s' = false -> txid s' <> 0 -> l_post f = scratch (fun p => if p =? lock then 0 else file_h s' p) (pageN s')) /\
  (wal_mode s' = true -> l_post f = scratch (fun p => if p =? lock then 0 else v' p) (pageN s')).
Proof. exact g_history_newest_file. Qed.

(* Non-vacuity of the above: the fifteen steps of Props/C04.v's example history; the newest file is 10-10 and carries the
   checksum of the imported two-page database *)
Example C09_history_newest_file_nonvacuous :
  let gs := import_example_history ++ [GImport import_example_image 2] in
  wf_gsteps (init 2097153) gs /\
  match run_gsteps (init 2097153) (fun _ => 0) gs with
  | Some (s', _) => match rev (ltxdir s') with
                    | f :: _ => (wal_mode s', l_max f, l_post f =? fl (N.lxor (fl 41) (fl 42)), txid s') = (false, 10, true, 10)
                    | [] => False
                    end
  | None => False
  end.
Proof. cbn zeta. apply gsteps_by_check. vm_compute. reflexivity. Qed.

(* Non-vacuity: two rollback-journal transactions; a sweep that removes the first file; the switch to WAL mode; a WAL
   commit; a sweep under a backup service that has confirmed up to 4; a restart; a stray file from the stream (refused); a
   drop; a sweep (the tombstone's file, the newest, stays); an import.  The side condition of every sweep holds and the
   log ends as [5-5; 6-6] at position 6. *)
Example C09_history_nonvacuous :
  ok_csteps (init 2097153) chain_example /\
  match run_csteps (init 2097153) chain_example with
  | Some s => (txid s, map l_min (ltxdir s), map l_max (ltxdir s)) = (6, [5; 6], [5; 6])
  | None => False
  end.
Proof. apply csteps_by_check. vm_compute. reflexivity. Qed.

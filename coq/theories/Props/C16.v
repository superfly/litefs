(* C16 -- Import replaces a database atomically; export returns the exact current image.
   ONLY statements.  Model/PageDB.v: op_import is DB.Import AFTER the two repairs recorded in
   KNOWN_FINDINGS.txt (F5: an image whose page size differs from the one learnt is refused before
   anything is written; F6: journal and WAL are discarded only after the whole input has been
   validated and written to the next transaction file).  [ok = false] stands for every input that
   cannot be applied (short header, truncated, garbage, unacceptable page size). *)
From Coq Require Import NArith List.
Require Import LF.Model.PageDB LF.Proofs.XorLib LF.Proofs.ChecksumProofs LF.Proofs.ChainProofs LF.Proofs.ApplyProofs
  LF.Proofs.HistoryProofs LF.Proofs.SqlCheckpointProofs LF.Proofs.FollowProofs LF.Proofs.ExportProofs
  LF.Proofs.ComposeProofs LF.Proofs.ImportHistoryProofs.
Require Import LF.Proofs.WalCheck LF.Proofs.HistoryCheck.
Import ListNotations.
Local Open Scope N_scope.

(* a successful import is ONE new transaction chained to the previous position; afterwards every
   imported page (lock page excepted) is what the database -- hence an export -- returns *)
Theorem C16_import_exact : forall s pages commit s',
  op_import s pages commit true = (Done, s') -> 0 < commit ->
  (forall kv, In kv pages -> 1 <= fst kv) -> NoDup (map fst pages) ->
  exists f, ltxdir s' = ltxdir s ++ [f] /\ l_min f = txid s + 1 /\ l_max f = txid s + 1 /\ l_pre f = chk s /\ l_commit f = commit /\
    txid s' = txid s + 1 /\ chk s' = l_post f /\ pageN s' = commit /\
    (forall p q, In (p, q) pages -> p <> lockpg s -> p <= commit -> read_page s' p = Some q).
Proof. exact import_exact. Qed.

(* failure atomicity: nothing changes (database, position, log, WAL bookkeeping), no Exit *)
Theorem C16_import_failure_atomic : forall s pages commit, op_import s pages commit false = (Failed, s).
Proof. exact import_failure_atomic. Qed.
Theorem C16_import_on_replica_refused : forall s pages commit ok,
  writeable s = false -> op_import s pages commit ok = (Failed, s).
Proof. exact import_on_replica_refused. Qed.

(* replicas applying the import's file reach the identical pages (same lemma as any apply) *)
Theorem C16_replica_apply_file : forall s f fatal s',
  op_apply s f fatal = (Done, s') -> 0 < l_commit f ->
  (forall kv, In kv (l_pages f) -> 1 <= fst kv) -> NoDup (map fst (l_pages f)) ->
  (forall p q, In (p, q) (l_pages f) -> p <= l_commit f -> file_pg s' p = Some q) /\
  (forall x, 1 <= x <= l_commit f -> ~ In x (map fst (l_pages f)) -> x <= lenN (dbfile s) -> file_pg s' x = file_pg s x) /\
  wal_latest s' = wal_latest s.
Proof. exact apply_file. Qed.

(* export = the committed image (last committed WAL version, else database page) at the reported position *)
Theorem C16_export_is_image : forall s,
  op_export s = (map (read_page s) (seqN 1 (N.to_nat (pageN s))), (txid s, chk s)).
Proof. exact export_is_image. Qed.

(* the chain is kept (C09) *)
Theorem C16_chain_import : forall s pages commit ok s', Chain s -> op_import s pages commit ok = (Done, s') -> Chain s'.
Proof. exact chain_import. Qed.

(* Non-vacuity: import a 3-page image over a 1-page WAL-mode database with an un-checkpointed WAL commit *)
Example C16_nonvacuous :
  let p n h hdr := (n, mkPg (fl h) hdr false) in
  match run_ops (init 2097153) [OWrite 1 (mkPg (fl 1) 1 true); OCommitJournal 1; OWalHeader; OCommitWal [(1, mkPg (fl 9) 1 true)] 1;
                                OImport [p 1 21 3; p 2 22 0; p 3 23 0] 3 true] with
  | Some s => (txid s, pageN s, map (option_map pg_h) (fst (op_export s))) = (3, 3, [Some (fl 21); Some (fl 22); Some (fl 23)])
  | None => False
  end.
Proof. vm_compute. reflexivity. Qed.

(* The image an export returns and the position it names belong together, along histories.  [hs], the switching transaction
   and [os] as in C04_wal_full_history: any rollback-journal history from an empty node, the switch to WAL mode, then WAL
   commits and checkpoints of every kind.  [op_export] returns [read_page] of every page 1..size (readPage of db.go: LiteFS's
   index of the log, else the database file) and the position.  For EVERY such history: the position is the node's, its
   checksum is the from-scratch checksum of the logical database [v'], and every page the export reads has [v']'s
   checksum - the export is the image of the position it names (on a quiescent node; the interleaved case is C10). *)
Theorem C16_export_matches_position : forall lock hs zf acts c os s1 s2 s' v',
  1 <= lock -> wf_hist (init lock) hs -> run_hsteps (init lock) hs = Some s1 ->
  wf_tx_any s1 zf acts -> run_group s1 (hops s1 (HTx zf acts c)) = (0, s2) -> wal_mode s2 = true ->
  wf_wops2 s2 os -> run_wops2 s2 (file_h s2) os = Some (s', v') ->
  snd (op_export s') = (txid s', chk s') /\
  chk s' = scratch (fun p => if p =? lock then 0 else v' p) (pageN s') /\
  (forall p q, 1 <= p <= pageN s' -> p <> lock -> read_page s' p = Some q -> pg_h q = v' p).
Proof. exact export_matches_position. Qed.
Print Assumptions C16_export_matches_position.

(* Non-vacuity: at the end of this history the database file is behind the log (page 1 an older version, page 3 not there);
   the export reads the logical database *)
Example C16_export_matches_position_nonvacuous :
  let pg h := mkPg (fl h) 0 false in
  let pw h := mkPg (fl h) 0 true in
  let hs := [HTx [] [AWrite 1 (pg 11); AWrite 2 (pg 12)] 2] in
  let sw := [AWrite 1 (pw 13)] in
  let os := [W2Commit [(2, pw 22); (3, pw 33); (2, pw 23)] 3; W2BackfillOld 2 (pw 22); W2Commit [(1, pw 14)] 2; W2Checkpoint;
             W2Commit [(3, pw 35); (1, pw 15)] 3] in
  exists s1 s2,
    wf_hist (init 2097153) hs /\ run_hsteps (init 2097153) hs = Some s1 /\
    wf_tx_any s1 [] sw /\ run_group s1 (hops s1 (HTx [] sw 2)) = (0, s2) /\ wal_mode s2 = true /\
    wf_wops2 s2 os /\
    match run_wops2 s2 (file_h s2) os with
    | Some (s', v') => (op_export s', chk s' =? fl (N.lxor (N.lxor (fl 15) (fl 23)) (fl 35)), map (fpg s') [1; 2; 3])
                       = (([Some (pw 15); Some (pw 23); Some (pw 35)], (5, chk s')), true, [pw 14; pw 23; zero_pg])
    | None => False
    end.
Proof. cbn zeta. apply (switch_by_check (fun s2 => wops2_by_check _ s2 (file_h s2) _)). vm_compute. auto. Qed.

(* import over the histories of C04_history:
   After EVERY history in the step language of Props/C04.v (any mix of journal modes, checkpoints, restarts, received and
   forwarded files, drops, earlier imports; a log with pending frames or not) a completed import of a whole image
   [pages] (every page 1..commit present) is ONE transaction on top of the node's position, and an export right after it
   names that position and reads, page by page (lock page excepted), exactly the imported pages; the position's checksum
   is the from-scratch checksum of the imported image - nothing of the previous database survives in either. *)
Theorem C16_history_import_then_export : forall lock gs s v pages commit s',
  1 <= lock -> wf_gsteps (init lock) gs -> run_gsteps (init lock) (fun _ => 0) gs = Some (s, v) ->
  wf_import s pages commit -> grun s (GImport pages commit) = Some s' ->
  txid s' = txid s + 1 /\ pageN s' = commit /\ snd (op_export s') = (txid s', chk s') /\
  (forall p, 1 <= p <= commit -> p <> lock -> read_page s' p = alookup p pages) /\
  chk s' = scratch (fun p => if p =? lock then 0 else match alookup p pages with Some q => pg_h q | None => 0 end) commit.
Proof. exact g_history_import_export. Qed.
Print Assumptions C16_history_import_then_export.

(* Non-vacuity: the fourteen steps of Props/C04.v's example history up to its drop (both journal modes, restarts, SQLite's
   complete checkpoint, received and forwarded files), then a two-page image imported into the dropped database *)
Example C16_history_import_nonvacuous :
  wf_gsteps (init 2097153) import_example_history /\
  match run_gsteps (init 2097153) (fun _ => 0) import_example_history with
  | Some (s, _) =>
      wf_import s import_example_image 2 /\
      match grun s (GImport import_example_image 2) with
      | Some s' => (txid s, txid s', pageN s', map (read_page s') [1; 2], chk s' =? fl (N.lxor (fl 41) (fl 42)))
                   = (9, 10, 2, [Some (mkPg (fl 41) 2 false); Some (mkPg (fl 42) 0 false)], true)
      | None => False
      end
  | None => False
  end.
Proof.
  apply (gsteps_by_check_with (fun s => wf_import_b s import_example_image 2) (fun s => wf_import_b_sound s _ _)).
  vm_compute. split; reflexivity.
Qed.

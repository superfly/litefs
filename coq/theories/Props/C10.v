(* C10 -- A completed snapshot or export is the image of exactly one position.  ONLY statements.
   Model/Snapshot.v: the reader's script of lock steps, capture steps and page reads, interleaved in ANY
   order ([sched]) with other connections' WAL commits, checkpoints and rollback-journal commits, each of
   which takes effect only if the locks it needs exclusively are not held by the reader (the RWMutex
   semantics proved for the generated model in C11).  [s_hist] is the ghost image of every position.
   FULL STATEMENT for the code's order ([export_script]): out_is_image after every schedule - it is FALSE
   (C10_export_refuted: known finding F12); it is proved for the hand-over that takes the READ locks before
   releasing WRITE ([safe_script]); WriteSnapshotTo takes the locks in the order of [export_script] (and releases
   CKPT before the page loop, C10_snapshot_script_is_generated) and ends with a self-check that turns a mixture
   into an error (C10_self_check_sound, under NoCollision: checksums stand for contents). *)
From Coq Require Import NArith List.
Require Import LF.Model.PageDB LF.Model.Snapshot LF.Proofs.SnapshotProofs.
Require Import LF.Base.RWBase LF.Gen.LockScriptsGen LF.Model.Locks LF.Proofs.LocksProofs.
Import ListNotations.
Local Open Scope N_scope.

Theorem C10_safe_handover_atomic : forall (pages : list N) (img : N -> pg) (sc : list sched),
  out_is_image (fst (exec (init_sst img) (safe_script pages) sc)).
Proof. exact safe_handover_atomic. Qed.

Theorem C10_export_refuted :
  let s := fst (exec (init_sst (fun _ => pgA)) (export_script [1; 2]) bad_schedule) in
  s_cpos s = Some 0%nat /\ s_out s = [(1, pgA); (2, pgB)] /\ s_hist s 0%nat 2 = pgA /\ ~ out_is_image s.
Proof. exact export_window_refuted. Qed.

Theorem C10_self_check_sound : forall s n, s_cpos s = Some n -> self_check s = true ->
  forall p q, In (p, q) (s_out s) -> pg_h q = pg_h (s_hist s n p).
Proof. exact self_check_sound. Qed.
Theorem C10_self_check_rejects_the_mixture :
  self_check (fst (exec (init_sst (fun _ => pgA)) (export_script [1; 2]) bad_schedule)) = false.
Proof. exact self_check_rejects_bad_schedule. Qed.

(* the guard of the model is the lock table's behaviour: while the reader holds a lock in any mode, another
   owner's exclusive request on it is refused and changes nothing *)
Theorem C10_reader_lock_blocks_exclusive : forall t l g h, TInv t -> gst (t l) g <> Unlocked -> h <> g ->
  exists t', t_trylock t l h = Some (false, t') /\ forall k, gst (t' l) k = gst (t l) k.
Proof. exact reader_lock_blocks_exclusive. Qed.

(* the order the refutation is about is the generated one *)
Theorem C10_export_script_is_generated : abstract gen_export 0 = export_prefix.
Proof. exact export_script_is_generated. Qed.
Theorem C10_snapshot_script_is_generated : abstract gen_snapshot 0 = export_prefix ++ [SRelease SLCkpt].
Proof. exact snapshot_script_is_generated. Qed.

Example C10_nonvacuous :
  s_out (fst (exec (init_sst (fun _ => pgA)) (safe_script [1; 2]) (bad_schedule ++ [RStep]))) = [(1, pgA); (2, pgA)].
Proof. exact safe_on_bad_schedule. Qed.

(* C03 -- WAL-mode commits are captured exactly when the write lock is released.
   ONLY statements.  Model/PageDB.v: [op_commit_wal s frames commit] is CommitWAL for the
   complete committed transaction [frames] (write order, repeated pages allowed) found at the
   current WAL offset; whether such a transaction exists in the bytes of the WAL (salts,
   cumulative checksums, commit frame) is decided by the byte-level model of C17
   (Props/C17.v, buildTxFrameOffsets). *)
From Coq Require Import NArith List.
Require Import LF.Model.PageDB LF.Proofs.XorLib LF.Proofs.ChecksumProofs LF.Proofs.CaptureProofs
  LF.Proofs.HistoryProofs LF.Proofs.WalHistoryProofs LF.Proofs.SqlCheckpointProofs LF.Proofs.WalLogHistoryProofs.
Require Import LF.Proofs.WalCheck.
Import ListNotations.
Local Open Scope N_scope.

(* one new file, TXID + 1, pre-checksum = previous checksum, size from the commit frame; the file
   holds exactly the LAST frame of every page the transaction wrote, the lock page skipped, and
   nothing else: no frame of another (rolled-back, earlier-generation) transaction can appear *)
Theorem C03_wal_commit_exact : forall s frames commit s',
  op_commit_wal s frames commit = (Done, s') ->
  exists f, ltxdir s' = ltxdir s ++ [f] /\
    l_min f = txid s + 1 /\ l_max f = txid s + 1 /\ l_pre f = chk s /\ l_post f = chk s' /\ l_commit f = commit /\
    txid s' = txid s + 1 /\ pageN s' = commit /\ dbfile s' = dbfile s /\
    (forall p q, In (p, q) (l_pages f) <-> (p <> lockpg s /\ p <= commit /\ last_frame p frames = Some q)).
Proof. exact wal_commit_exact. Qed.

(* and the checksum it reports is the from-scratch one (shared with C04) *)
Theorem C03_wal_commit_checksum : forall s frames commit s',
  CacheOK s -> LockZero s -> (forall p, pageN s < p -> dbc s p = 0) ->
  op_commit_wal s frames commit = (Done, s') ->
  chk s' = scratch (eff s commit (tx_new s frames commit)) commit /\
  txid s' = txid s + 1 /\ pageN s' = commit /\ CacheOK s' /\ (forall p, dbc s' p = dbc s p).
Proof. exact commit_wal_checksum. Qed.

(* Non-vacuity: a 257-page WAL database shrunk to 256 pages by a transaction that writes page 1
   twice and page 5 once: the file holds the last version of page 1 and page 5 only *)
Example C03_nonvacuous :
  let pages := map (fun p => OWrite p (mkPg (fl (p * 7919)) (if p =? 1 then 257 else 0) (p =? 1))) (seqN 1 257) in
  let s := snd (run_group (init 2097153) (pages ++ [OCommitJournal 257; OWalHeader])) in
  let '(o, s') := op_commit_wal s [(1, mkPg (fl 5) 256 true); (5, mkPg (fl 6) 0 false); (1, mkPg (fl 7) 256 true)] 256 in
  (o, txid s', pageN s', map (fun f => map (fun kv => (fst kv, pg_h (snd kv))) (l_pages f)) (skipn 1 (ltxdir s')))
  = (Done, 2, 256, [[(1, fl 7); (5, fl 6)]]).
Proof. vm_compute. reflexivity. Qed.

(* ... and a transaction that spilled page 8 and then shrank an 8-page database to 6 pages: the page is in the log but
   not in the database the transaction leaves, and not in the file (p <= commit in C03_wal_commit_exact) *)
Example C03_spill_then_shrink :
  let pages := map (fun p => OWrite p (mkPg (fl (p * 7919)) (if p =? 1 then 8 else 0) (p =? 1))) (seqN 1 8) in
  let s := snd (run_group (init 2097153) (pages ++ [OCommitJournal 8; OWalHeader])) in
  let '(o, s') := op_commit_wal s [(8, mkPg (fl 18) 0 false); (2, mkPg (fl 12) 0 false); (1, mkPg (fl 11) 6 true)] 6 in
  (o, txid s', pageN s', map (fun f => map (fun kv => (fst kv, pg_h (snd kv))) (l_pages f)) (skipn 1 (ltxdir s')))
  = (Done, 2, 6, [[(1, fl 11); (2, fl 12)]]).
Proof. vm_compute. reflexivity. Qed.

(* "Exactly once, in order", along histories, in WAL mode too.  [hs]: any rollback-journal history from an empty node; the
   transaction that switches to WAL mode; [os]: WAL commits, LiteFS checkpoints, pages copied by SQLite, SQLite's complete
   checkpoint with the restart of the log, in any order ([wf_wops2] as in C04_wal_full_history).  For EVERY such history the
   log holds exactly one file per committed transaction - rollback-journal or WAL -, the k-th numbered k; a checkpoint of
   any kind publishes nothing.  (Chained: C09's chain invariant; the right pages: C03_wal_commit_exact; replaying them
   reproduces the logical database: C01_follower_identical_wal.) *)
Theorem C03_history_once_in_order : forall lock hs zf acts c os s1 s2 s' v',
  1 <= lock -> wf_hist (init lock) hs -> run_hsteps (init lock) hs = Some s1 ->
  wf_tx_any s1 zf acts -> run_group s1 (hops s1 (HTx zf acts c)) = (0, s2) -> wal_mode s2 = true ->
  wf_wops2 s2 os -> run_wops2 s2 (file_h s2) os = Some (s', v') ->
  map (fun f => (l_min f, l_max f)) (ltxdir s') = map (fun t => (t, t)) (seqN 1 (N.to_nat (txid s'))) /\
  length (ltxdir s') = N.to_nat (txid s').
Proof. exact wal_log_once_in_order. Qed.
Print Assumptions C03_history_once_in_order.

(* Non-vacuity: five transactions (two under a rollback journal, three in the log), three checkpoints of three kinds *)
Example C03_history_nonvacuous :
  let pg h := mkPg (fl h) 0 false in
  let pw h := mkPg (fl h) 0 true in
  let hs := [HTx [] [AWrite 1 (pg 11); AWrite 2 (pg 12)] 2] in
  let sw := [AWrite 1 (pw 13)] in
  let os := [W2Commit [(2, pw 22); (3, pw 33); (2, pw 23)] 3; W2BackfillOld 2 (pw 22); W2Backfill 2; W2Commit [(1, pw 14)] 2; W2SqlRestart;
             W2Commit [(3, pw 35); (1, pw 15)] 3; W2Checkpoint] in
  exists s1 s2,
    wf_hist (init 2097153) hs /\ run_hsteps (init 2097153) hs = Some s1 /\
    wf_tx_any s1 [] sw /\ run_group s1 (hops s1 (HTx [] sw 2)) = (0, s2) /\ wal_mode s2 = true /\
    wf_wops2 s2 os /\
    match run_wops2 s2 (file_h s2) os with
    | Some (s', v') => (txid s', map (fun f => (l_min f, l_max f)) (ltxdir s'), map (fun f => map fst (l_pages f)) (ltxdir s'))
                       = (5, [(1, 1); (2, 2); (3, 3); (4, 4); (5, 5)], [[1; 2]; [1]; [2; 3]; [1]; [1; 3]])
    | None => False
    end.
Proof. cbn zeta. apply (switch_by_check (fun s2 => wops2_by_check _ s2 (file_h s2) _)). vm_compute. auto. Qed.

(* capture, read off the log, over the histories of C04_history (Props/C04.v):
   After EVERY (well-formed) history of those steps - in either journal mode - the newest transaction file has the
   database's size and position, and every page it names is the logical database's version of that page ([lpage]: the
   log's last committed frame for the page, else the database file's page): what was captured at the last write-lock
   release is exactly what SQLite committed, nothing of an earlier or aborted generation. *)
Require Import LF.Proofs.ComposeProofs LF.Proofs.FollowWalProofs LF.Proofs.RestartHistoryProofs LF.Proofs.PrimaryRestartProofs.
Require Import LF.Proofs.HistoryCheck.
Theorem C03_history_newest_file_is_logical_database : forall lock gs s v f rest,
  1 <= lock -> wf_gsteps (init lock) gs -> run_gsteps (init lock) (fun _ => 0) gs = Some (s, v) ->
  rev (ltxdir s) = f :: rest ->
  l_commit f = pageN s /\ l_max f = txid s /\ l_post f = chk s /\
  forall p q, In (p, q) (l_pages f) -> 1 <= p <= l_commit f -> lpage s p = q.
Proof. exact g_history_last_agree. Qed.
Print Assumptions C03_history_newest_file_is_logical_database.

(* Non-vacuity: create, restart, switch to WAL mode, a WAL transaction that rewrites page 2 twice and grows the database:
   the newest file 3-3 holds the last version of each page *)
Example C03_history_newest_file_nonvacuous :
  let pw h n := mkPg (fl h) n true in
  wf_gsteps (init 2097153) restart_example_history /\
  match run_gsteps (init 2097153) (fun _ => 0) restart_example_history with
  | Some (s, _) => match rev (ltxdir s) with
                   | f :: _ => (l_min f, l_max f, l_commit f, l_pages f, map (lpage s) [1; 2; 3], pageN s)
                               = (3, 3, 3, [(1, pw 14 3); (2, pw 23 0); (3, pw 33 0)], [pw 14 3; pw 23 0; pw 33 0], 3)
                   | [] => False
                   end
  | None => False
  end.
Proof. cbn zeta. apply gsteps_by_check. vm_compute. reflexivity. Qed.

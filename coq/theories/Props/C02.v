(* C02 -- Rollback-journal commits are captured exactly, once, in order.
   ONLY statements.  Model: Model/PageDB.v (WriteDatabaseAt, CommitJournal,
   TruncateDatabase at DB-API granularity; pages = their checksums).
   [Unchanged s0 s]: every page of the database file that differs from the file at the
   last commit point s0 is in the dirty set -- established by the write lemma below for
   every sequence of page writes, so the commit theorem applies to every pager program
   (any set of modified / appended / freed pages, any write order, rollback before or
   after spill, which re-writes the pre-images through the same call). *)
From Coq Require Import NArith List Sorted.
Require Import LF.Model.PageDB LF.Proofs.XorLib LF.Proofs.CaptureProofs LF.Proofs.HistoryProofs
  LF.Proofs.LogHistoryProofs.
Require Import LF.Proofs.WalCheck.
Import ListNotations.
Local Open Scope N_scope.

(* every database page write in rollback mode is tracked; position, checksum and log are untouched *)
Theorem C02_write_tracked : forall s0 s p q s',
  wal_mode s = false -> contiguous s p -> Unchanged s0 s -> op_write_page s p q = (Done, s') ->
  Unchanged s0 s' /\ wal_mode s' = false /\ dirty s' = insert_sorted p (dirty s) /\
  txid s' = txid s /\ chk s' = chk s /\ ltxdir s' = ltxdir s /\ lockpg s' = lockpg s.
Proof. exact write_page_unchanged. Qed.

(* ... and so is every page write made inside a rollback-journal transaction while LiteFS tracks the database as WAL:
   SQLite leaves WAL mode by closing the log and then rewriting page 1 under a rollback journal, with the header on disk
   still naming WAL (vdbe.c OP_JournalMode); C02_journal_commit_exact then applies to that transaction as to any other *)
Theorem C02_journalled_write_tracked : forall s0 s p q s',
  contiguous s p -> Unchanged s0 s -> op_write_page_j s p q = (Done, s') ->
  Unchanged s0 s' /\ wal_mode s' = wal_mode s /\ dirty s' = insert_sorted p (dirty s) /\
  txid s' = txid s /\ chk s' = chk s /\ ltxdir s' = ltxdir s /\ lockpg s' = lockpg s.
Proof. exact write_page_j_unchanged. Qed.

(* finalising a valid journal: exactly one new file, TXID + 1, pre-checksum = previous checksum,
   sorted pages, none beyond the new size or on the lock page, and applying the file to the
   image at the previous position yields exactly the file SQLite now sees *)
Theorem C02_journal_commit_exact : forall s0 s commit s',
  Unchanged s0 s -> StronglySorted N.lt (dirty s) ->
  op_commit_journal s commit = (Done, s') ->
  exists f, ltxdir s' = ltxdir s ++ [f] /\
    l_min f = txid s + 1 /\ l_max f = txid s + 1 /\ l_pre f = chk s /\ l_post f = chk s' /\ l_commit f = commit /\
    txid s' = txid s + 1 /\ pageN s' = commit /\
    StronglySorted N.lt (map fst (l_pages f)) /\
    (forall p, In p (map fst (l_pages f)) -> p <= commit /\ p <> lockpg s) /\
    (forall p, 1 <= p <= commit -> p <> lockpg s ->
       file_pg s' p = match alookup p (l_pages f) with Some q => Some q | None => file_pg s0 p end).
Proof. exact journal_commit_exact. Qed.

(* a database that grows: every page between the old and the new size is in the file of the transaction with what the
   database file holds there - also a page SQLite never wrote (a free-list leaf, allocated and freed again within the
   transaction; the file system put zeros there), which no WriteDatabaseAt call ever announced *)
Theorem C02_growth_is_captured : forall s commit s',
  op_commit_journal s commit = (Done, s') ->
  exists f, ltxdir s' = ltxdir s ++ [f] /\
    forall p, pageN s < p <= commit -> p <> lockpg s -> exists q, In (p, q) (l_pages f) /\ file_pg s p = Some q.
Proof. exact commit_journal_covers_growth. Qed.

(* "database created from nothing ... rollback after spill": the transaction that would have created the database is
   rolled back after it wrote pages; SQLite cuts the file back to nothing and finalises the journal: nothing is
   published, position, log and (empty) image are what they were *)
Theorem C02_rolled_back_creation_publishes_nothing : forall s c,
  writeable s = true -> pageN s = 0 -> dbfile s = [] -> step s (OCommitJournal c) = (Done, with_dirty s []).
Proof. exact rolled_back_creation. Qed.
Example C02_rolled_back_creation_nonvacuous :
  let s := snd (run_group (init 2097153) [OWrite 1 (mkPg (fl 11) 3 false); OWrite 2 (mkPg (fl 12) 0 false); OTruncate 0; OCommitJournal 0]) in
  (txid s, chk s, pageN s, dbfile s, ltxdir s, dirty s) = (0, 0, 0, [], [], []) /\
  fst (run_group s [OWrite 1 (mkPg (fl 21) 1 false); OCommitJournal 1]) = 0.
Proof. vm_compute. split; reflexivity. Qed.

(* the truncate issued after finalisation is accepted only for the committed size, cuts the file
   to it and changes neither position nor log; any other size is refused without change *)
Theorem C02_post_commit_truncate : forall s n s' o, op_truncate s n = (o, s') ->
  (o = Done -> n = pageN s /\ dbfile s' = firstn (N.to_nat n) (dbfile s)) /\
  (o <> Done -> s' = s) /\ txid s' = txid s /\ chk s' = chk s /\ ltxdir s' = ltxdir s.
Proof. exact truncate_spec. Qed.

(* Non-vacuity: create a 3-page database from nothing, then modify page 2 and shrink to 2 pages;
   a rolled-back transaction (pre-image written back) produces a file whose application is the identity *)
Example C02_nonvacuous :
  let p n h := mkPg (fl h) (if n =? 1 then 3 else 0) false in
  let s1 := snd (run_group (init 2097153) [OWrite 1 (p 1 11); OWrite 2 (p 2 12); OWrite 3 (p 3 13); OCommitJournal 3]) in
  let s2 := snd (run_group s1 [OWrite 2 (p 2 99); OWrite 2 (p 2 12); OCommitJournal 3]) in
  (txid s1, txid s2, map (fun f => map fst (l_pages f)) (ltxdir s2)) = (1, 2, [[1;2;3];[2]]) /\ chk s2 = chk s1 /\ dbfile s2 = dbfile s1.
Proof. vm_compute. repeat split; reflexivity. Qed.

(* ... and leaving WAL mode: a 2-page WAL-mode database; the log is closed; page 1 is rewritten with version 1 under a
   rollback journal; the file of that transaction holds page 1 and the database is tracked as rollback-journal afterwards *)
Example C02_leaving_wal_mode :
  let s1 := snd (run_group (init 2097153) [OWrite 1 (mkPg (fl 11) 2 true); OWrite 2 (mkPg (fl 12) 0 false); OCommitJournal 2]) in
  let s2 := snd (run_group s1 [OWalTruncate; OWriteJ 1 (mkPg (fl 21) 2 false); OCommitJournal 2]) in
  (wal_mode s1, wal_mode s2, txid s2, map (fun f => map fst (l_pages f)) (ltxdir s2)) = (true, false, 2, [[1;2];[1]]).
Proof. vm_compute. reflexivity. Qed.

(* "Exactly once, in order", along histories.  [hs]: any rollback-journal history from an empty node ([hstep], [wf_hist] as
   in C04_journal_history: committed transactions with page writes in any order, gaps, spills and rollbacks, failed
   finalisations that are repeated; truncates).  For EVERY such history the log holds exactly one file per committed
   transaction, the k-th numbered k - nothing captured twice, nothing skipped, nothing out of order.  (That each file's
   pre-checksum is the post-checksum of the one before is C09's chain invariant; that each file holds exactly the pages the
   transaction changed is C02_journal_commit_exact; that replaying them reproduces the database is C01_follower_identical.) *)
Theorem C02_history_once_in_order : forall lock hs s',
  1 <= lock -> wf_hist (init lock) hs -> run_hsteps (init lock) hs = Some s' ->
  map (fun f => (l_min f, l_max f)) (ltxdir s') = map (fun t => (t, t)) (seqN 1 (N.to_nat (txid s'))) /\
  length (ltxdir s') = N.to_nat (txid s').
Proof. exact log_history_once_in_order. Qed.
Print Assumptions C02_history_once_in_order.

(* Non-vacuity: the history of C04_journal_history_nonvacuous - four committed transactions (one of them a rollback after a
   spill, which publishes a file of unchanged pages) and a truncate: four files, numbered 1..4 *)
Example C02_history_nonvacuous :
  let pg h := mkPg (fl h) 0 false in
  let hs := [HTx [] [AWrite 1 (pg 11); AWrite 2 (pg 12)] 2;
             HTx [(3, pg 33); (4, pg 44)] [AWrite 1 (pg 21); AWrite 5 (pg 55)] 5;
             HTx [] [AWrite 2 (pg 77); AWrite 7 (pg 70); AWrite 2 (pg 12); ACut] 5;
             HTx [] [AWrite 2 (pg 92)] 3; HTrunc 3] in
  wf_hist (init 2097153) hs /\
  match run_hsteps (init 2097153) hs with
  | Some s => (txid s, map (fun f => (l_min f, l_max f)) (ltxdir s), map (fun f => map fst (l_pages f)) (ltxdir s))
              = (4, [(1, 1); (2, 2); (3, 3); (4, 4)], [[1; 2]; [1; 3; 4; 5]; [2]; [2]])
  | None => False
  end.
Proof. cbn zeta. apply hsteps_by_check. vm_compute. reflexivity. Qed.

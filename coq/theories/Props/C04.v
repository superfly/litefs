(* C04 -- The reported checksum always equals a from-scratch checksum of the
   database.  ONLY statements; proofs are `exact <lemma>`, the examples are
   evaluated.

   Pages are represented by their checksum value H(pgno, bytes) -- an arbitrary
   N (the harness supplies CRC64-ISO values computed with the Go standard
   library); nothing is assumed about H.  [scratch f n] is
   flag | XOR_{p=1..n} f p  with f(lock page) = 0, i.e. the value "recomputed
   from nothing".  Model/PageDB.v models checksum(), the per-page / per-block
   cache and its maintenance exactly as db.go does (with the `fix:` for F4).

   Proved here, for single operations (every state, every database size, every block layout):
     1. checksum() = scratch of the per-page checksums in effect;
     2. the checksum CommitJournal reports = scratch over the page checksums
        of pages 1..commit - the cached one ([jc]), or for a page inside the
        grown database that SQLite never wrote (a free-list leaf: allocated and
        freed again within the transaction) the checksum of what the file holds
        there - and the cache is left truthful and zero beyond commit;
     3. the checksum CommitWAL reports = scratch over (this tx's page, else last
        committed WAL version, else database page);
     4. a drop reports exactly the empty checksum.
   And along histories from an empty node:
     5. EVERY history of rollback-journal transactions - any page writes in any
        order, pages SQLite never writes, growth, shrink with the truncate that
        follows: the per-page cache agrees with the file page by page and every
        reported checksum is the from-scratch checksum of the database file
        (C04_journal_history).
     6. into WAL mode: after any such history, the transaction that rewrites
        page 1 with the WAL versions, then ANY number of WAL commits (growth,
        shrink, repeated pages): every reported checksum is the from-scratch
        checksum of the logical database - the file at the switch overlaid with
        the last frame of every page each transaction wrote - and LiteFS's
        per-page answer is that database's entry (C04_wal_history).
     7. the same with LiteFS's own checkpoint (CheckpointNoLock) between the WAL
        commits, in any order and number: the log LiteFS keeps a picture of, its
        per-page WAL checksums and the file stay tied to the logical database
        (invariant WK), so the checkpoint changes no answer, and with nothing
        left in the log the database file IS the logical database
        (C04_wal_checkpoint_history).
     8. the same with checkpoints run by SQLite as well: single pages of the log
        written into the database file through LiteFS (a checkpoint that goes
        part of the way), and the complete one - every page of the log within
        the database size, the cut of the file, the restart of the log at which
        LiteFS forgets its WAL bookkeeping (C04_wal_full_history).
     9. on a replica: along EVERY sequence of transaction files it is sent
        (applied, or refused for not continuing the position; tombstones
        included) the per-page cache is the database file's and every position
        it takes carries the from-scratch checksum of its database file
        (C04_replica_history).
    10. across a restart, from ANY state: if Open succeeds, the position's
        checksum is the from-scratch checksum of the database file and the cache
        is the file's (C04_open_recomputes).
    11. all of it put together, with the way back out of WAL mode and
        restarts anywhere: ONE invariant (GInv: J and an empty log in
        rollback-journal mode, WL and WK in WAL mode) kept by every step -
        a rollback-journal transaction, the truncate, the switch, a WAL commit,
        every kind of checkpoint, the removal of the log with page 1 rewritten
        under a rollback journal, Open - hence for EVERY history made of these
        steps the position's checksum is the from-scratch checksum of the
        logical database (C04_history).
        A node may change role inside the history: files from the stream
        (GRecv) between its own transactions.  Drop and import are steps too.
        A partial SQLite checkpoint may copy an older version than the log's
        last (W2BackfillOld); a finalisation of the journal may fail inside
        LiteFS before anything is published (AFail) and be repeated.
   NOT proved: histories outside these steps - a WAL
   commit LiteFS fails inside (the process exits: C05 has the crash points), a
   node whose page size changes; these are re-checked on
   every run by the correspondence (the model re-executes every generated
   history and must reproduce every reported position) and by the harness'
   raw-file recomputation. *)
From Coq Require Import NArith List.
Require Import LF.Model.PageDB LF.Proofs.XorLib LF.Proofs.ChecksumProofs LF.Proofs.HistoryProofs
  LF.Proofs.WalHistoryProofs LF.Proofs.WalCheckpointProofs LF.Proofs.SqlCheckpointProofs LF.Proofs.ApplyHistoryProofs
  LF.Proofs.OpenProofs LF.Proofs.ComposeProofs.
Require Import LF.Proofs.WalCheck LF.Proofs.HistoryCheck.
Import ListNotations.
Local Open Scope N_scope.

Theorem C04_checksum_is_scratch : forall s pN new c s',
  Pre s pN new -> checksum s pN new = (Some c, s') -> c = scratch (eff s pN new) pN.
Proof. exact checksum_is_scratch. Qed.

Theorem C04_commit_journal_checksum : forall s commit s',
  CacheOK s -> LockZero s -> 1 <= lockpg s -> op_commit_journal s commit = (Done, s') ->
  chk s' = scratch (fun p => if p =? lockpg s then 0 else jc s p) commit /\
  txid s' = txid s + 1 /\ pageN s' = commit /\ dirty s' = [] /\
  CacheOK s' /\ LockZero s' /\ (forall p, commit < p -> dbc s' p = 0) /\
  (forall p, 1 <= p <= commit -> p <> lockpg s -> dbc s' p = jc s p).
Proof. exact commit_journal_checksum. Qed.

(* a database that grows across pages SQLite never wrote (free-list leaves): those pages count with the checksum of
   what the file holds there *)
Theorem C04_unwritten_page_counted : forall s commit s',
  CacheOK s -> LockZero s -> 1 <= lockpg s -> op_commit_journal s commit = (Done, s') ->
  forall p, unwritten s p = true -> p <= commit -> p <> lockpg s -> dbc s' p = file_h s p.
Proof. exact commit_journal_unwritten. Qed.

Theorem C04_commit_wal_checksum : forall s frames commit s',
  CacheOK s -> LockZero s -> (forall p, pageN s < p -> dbc s p = 0) ->
  op_commit_wal s frames commit = (Done, s') ->
  chk s' = scratch (eff s commit (tx_new s frames commit)) commit /\
  txid s' = txid s + 1 /\ pageN s' = commit /\ CacheOK s' /\ (forall p, dbc s' p = dbc s p).
Proof. exact commit_wal_checksum. Qed.

Theorem C04_empty_checksum : forall s new, checksum s 0 new = (Some flag, s).
Proof. exact (fun s new => eq_refl). Qed.

Theorem C04_drop_reports_empty : forall s s',
  op_drop s = (Done, s') -> chk s' = flag /\ txid s' = txid s + 1 /\ pageN s' = 0 /\ dbfile s' = [].
Proof. exact drop_reports_empty. Qed.

(* Non-vacuity: a 257-page database written and committed from nothing, then shrunk to 256 pages by
   a WAL transaction (the F4 shape): all hypotheses hold at the initial state and the run succeeds. *)
Example C04_nonvacuous :
  let pages := map (fun p => OWrite p (mkPg (fl (p * 7919)) (if p =? 1 then 257 else 0) (p =? 1))) (seqN 1 257) in
  let s := snd (run_group (init 2097153) (pages ++ [OCommitJournal 257])) in
  (txid s, pageN s, negb (chk s =? flag), wal_mode s) = (1, 257, true, true) /\
  fst (run_group s [OWalHeader; OCommitWal [(1, mkPg (fl 5) 256 true)] 256]) = 0.
Proof. vm_compute. split; reflexivity. Qed.

(* ... and a database of 2 pages that grows to 5 while only pages 1 and 5 are written (3 and 4: zeros put there by the
   file system, checksums 33 and 44): the position's checksum is the from-scratch one over all five pages, the
   transaction file holds pages 1, 3, 4, 5, and a restart (OOpen recomputes every checksum from the file) agrees *)
Example C04_unwritten_pages_nonvacuous :
  let s1 := snd (run_group (init 2097153) [OWrite 1 (mkPg (fl 11) 2 false); OWrite 2 (mkPg (fl 12) 0 false); OCommitJournal 2]) in
  let s2 := snd (run_group s1 [OWrite 1 (mkPg (fl 21) 5 false); OWrite 5 (mkPg (fl 55) 0 false);
                               OZeroFill 3 (mkPg (fl 33) 0 false); OZeroFill 4 (mkPg (fl 44) 0 false); OCommitJournal 5]) in
  (txid s2, chk s2 =? fl (N.lxor (N.lxor (N.lxor (N.lxor 21 12) 33) 44) 55), map (fun f => map fst (l_pages f)) (ltxdir s2))
    = (2, true, [[1;2];[1;3;4;5]]) /\
  (unwritten (snd (run_group s1 [OWrite 1 (mkPg (fl 21) 5 false); OWrite 5 (mkPg (fl 55) 0 false)])) 3 = true) /\
  run_group s2 [OOpen] = (0, snd (run_group s2 [OOpen])) /\ chk (snd (run_group s2 [OOpen])) = chk s2.
Proof. vm_compute. repeat split; reflexivity. Qed.

(* Histories.  [hstep]: a committed rollback-journal transaction (the gaps the file system fills with zeros - pages SQLite
   never writes -, the page writes, the new size) or the truncate that follows a shrinking commit; [wf_hist]: what SQLite's
   pager guarantees (gaps lie beyond the old size and are distinct, page numbers start at 1, the journal mode stays).
   For EVERY such history from an empty node, of any length: once something was committed the position's checksum is the
   from-scratch checksum of the database file, and the cache agrees with the file on every page of the database. *)
Theorem C04_journal_history : forall lock hs s',
  1 <= lock -> wf_hist (init lock) hs -> run_hsteps (init lock) hs = Some s' ->
  (txid s' <> 0 -> chk s' = scratch (fun p => if p =? lock then 0 else file_h s' p) (pageN s')) /\
  (forall p, 1 <= p <= pageN s' -> p <> lock -> dbc s' p = file_h s' p) /\ lockpg s' = lock.
Proof. exact journal_history_checksum. Qed.

(* Non-vacuity: create 2 pages; grow to 5 writing only pages 1 and 5 (3 and 4 are gaps); a transaction that spills pages 2
   and 7 and is rolled back (pre-image back, cut to 5 pages); shrink to 3 and truncate *)
Example C04_journal_history_nonvacuous :
  let pg h := mkPg (fl h) 0 false in
  let hs := [HTx [] [AWrite 1 (pg 11); AWrite 2 (pg 12)] 2;
             HTx [(3, pg 33); (4, pg 44)] [AWrite 1 (pg 21); AWrite 5 (pg 55)] 5;
             HTx [] [AWrite 2 (pg 77); AWrite 7 (pg 70); AWrite 2 (pg 12); ACut] 5;
             HTx [] [AWrite 2 (pg 92)] 3; HTrunc 3] in
  wf_hist (init 2097153) hs /\
  match run_hsteps (init 2097153) hs with
  | Some s => (txid s, pageN s, lenN (dbfile s), chk s =? fl (N.lxor (N.lxor 21 92) 33)) = (4, 3, 3, true)
  | None => False
  end.
Proof. cbn zeta. apply hsteps_by_check. vm_compute. reflexivity. Qed.

(* Into WAL mode.  [hs]: any rollback-journal history as above; then one more rollback-journal transaction [zf acts c] whose
   pages may carry anything ([wf_tx_any]) and which leaves the database in WAL mode - SQLite rewrites page 1 with the WAL
   versions; then [ws]: any number of committed WAL transactions, each the frames in write order and the size its commit
   frame names, of which [wf_wals] asks what SQLite guarantees: every page the database gains is among the frames, and
   page 1, when written, keeps the WAL versions.  [overlay] (which [run_wal] folds over [ws]) is the logical database:
     overlay lock frames commit v p = checksum of the last frame for p, if p is not the lock page, p <= commit and the
     transaction wrote p; else v p.
   For EVERY such history: the position's checksum is the from-scratch checksum of that logical database, and what
   LiteFS answers for a page's checksum ([eff], pageChecksum of db.go) is its entry there. *)
Theorem C04_wal_history : forall lock hs zf acts c ws s1 s2 s' v',
  1 <= lock -> wf_hist (init lock) hs -> run_hsteps (init lock) hs = Some s1 ->
  wf_tx_any s1 zf acts -> run_group s1 (hops s1 (HTx zf acts c)) = (0, s2) -> wal_mode s2 = true ->
  wf_wals s2 ws -> run_wal s2 (file_h s2) ws = Some (s', v') ->
  chk s' = scratch (fun p => if p =? lock then 0 else v' p) (pageN s') /\
  (forall p, 1 <= p <= pageN s' -> p <> lock -> eff s' (pageN s') [] p = v' p) /\ lockpg s' = lock.
Proof. exact wal_history_checksum. Qed.
Print Assumptions C04_wal_history.

(* Non-vacuity: two pages in rollback-journal mode, the switch, then three WAL transactions - one grows the database to 3
   pages and writes page 2 twice, one shrinks it to 2, one grows it again *)
Example C04_wal_history_nonvacuous :
  let pg h := mkPg (fl h) 0 false in
  let pw h := mkPg (fl h) 0 true in
  let hs := [HTx [] [AWrite 1 (pg 11); AWrite 2 (pg 12)] 2] in
  let sw := [AWrite 1 (pw 13)] in
  let ws : list wstep := [([(2, pw 22); (3, pw 33); (2, pw 23)], 3); ([(1, pw 14)], 2); ([(3, pw 35); (1, pw 15)], 3)] in
  exists s1 s2,
    wf_hist (init 2097153) hs /\ run_hsteps (init 2097153) hs = Some s1 /\
    wf_tx_any s1 [] sw /\ run_group s1 (hops s1 (HTx [] sw 2)) = (0, s2) /\ wal_mode s2 = true /\
    wf_wals s2 ws /\
    match run_wal s2 (file_h s2) ws with
    | Some (s', v') => (txid s', pageN s', chk s' =? fl (N.lxor (N.lxor (fl 15) (fl 23)) (fl 35)), v' 2 =? fl 23) = (5, 3, true, true)
    | None => False
    end.
Proof. cbn zeta. apply (switch_by_check (fun s2 => wals_by_check _ s2 (file_h s2) _)). vm_compute. auto. Qed.

(* ... and with LiteFS's checkpoint anywhere in between.  [os]: WAL commits ([WCommit frames commit]) and checkpoints
   ([WCheckpoint]: the last committed version of every page in the log is copied into the database file, the file is cut to
   the size of the last commit, the WAL bookkeeping is forgotten) in any order and number; [wf_wops] asks of a commit what
   [wf_wals] asks, and that it has frames, a size, and page numbers from 1.  [v'] is computed as before - a checkpoint
   leaves it alone.  For EVERY such history: as above, and whenever nothing is left in the log (right after a checkpoint)
   the database file holds exactly the logical database. *)
Theorem C04_wal_checkpoint_history : forall lock hs zf acts c os s1 s2 s' v',
  1 <= lock -> wf_hist (init lock) hs -> run_hsteps (init lock) hs = Some s1 ->
  wf_tx_any s1 zf acts -> run_group s1 (hops s1 (HTx zf acts c)) = (0, s2) -> wal_mode s2 = true ->
  wf_wops s2 os -> run_wops s2 (file_h s2) os = Some (s', v') ->
  chk s' = scratch (fun p => if p =? lock then 0 else v' p) (pageN s') /\
  (forall p, 1 <= p <= pageN s' -> p <> lock -> eff s' (pageN s') [] p = v' p) /\
  (wal_file s' = [] -> forall p, 1 <= p <= pageN s' -> p <> lock -> file_h s' p = v' p) /\ lockpg s' = lock.
Proof. exact wal_ckpt_history_checksum. Qed.
Print Assumptions C04_wal_checkpoint_history.

Example C04_wal_checkpoint_history_nonvacuous :
  let pg h := mkPg (fl h) 0 false in
  let pw h := mkPg (fl h) 0 true in
  let hs := [HTx [] [AWrite 1 (pg 11); AWrite 2 (pg 12)] 2] in
  let sw := [AWrite 1 (pw 13)] in
  let os := [WCommit [(2, pw 22); (3, pw 33); (2, pw 23)] 3; WCheckpoint; WCommit [(1, pw 14)] 2;
             WCommit [(3, pw 35); (1, pw 15)] 3; WCheckpoint] in
  exists s1 s2,
    wf_hist (init 2097153) hs /\ run_hsteps (init 2097153) hs = Some s1 /\
    wf_tx_any s1 [] sw /\ run_group s1 (hops s1 (HTx [] sw 2)) = (0, s2) /\ wal_mode s2 = true /\
    wf_wops s2 os /\
    match run_wops s2 (file_h s2) os with
    | Some (s', v') => (txid s', pageN s', chk s' =? fl (N.lxor (N.lxor (fl 15) (fl 23)) (fl 35)), length (wal_file s'),
                        map (file_h s') [1; 2; 3]) = (5, 3, true, 0%nat, [fl 15; fl 23; fl 35])
    | None => False
    end.
Proof. cbn zeta. apply (switch_by_check (fun s2 => wops_by_check _ s2 (file_h s2) _)). vm_compute. auto. Qed.

(* Replicas.  [fs]: any sequence of transaction files sent to a node that starts empty; [wf_file]: page numbers start at 1,
   no page twice, the TXID is not 0 (what the LTX decoder enforces).  [run_recv] is processLTXStreamFrame: a file that does
   not continue the position is refused and changes nothing, any other is placed and applied (ApplyLTXNoLock, which
   verifies the post-apply checksum and exits the process when it differs - such a history has no final state).
   For EVERY such history: once the replica has a position, the position's checksum is the from-scratch checksum of its
   database file, and the per-page cache is the file's, page by page. *)
Theorem C04_replica_history : forall lock fs s',
  1 <= lock -> Forall wf_file fs -> run_recv (init lock) fs = Some s' ->
  (txid s' <> 0 -> chk s' = scratch (fun p => if p =? lock then 0 else file_h s' p) (pageN s')) /\
  (forall p, 1 <= p -> p <> lock -> dbc s' p = file_h s' p) /\ lockpg s' = lock.
Proof. exact replica_history_checksum. Qed.
Print Assumptions C04_replica_history.

(* Non-vacuity: the files a primary wrote - create 2 pages; grow to 5 writing only pages 1 and 5; shrink to 3 - and a stray
   file that does not continue the position *)
Example C04_replica_history_nonvacuous :
  let pg h := mkPg (fl h) 0 false in
  let hs := [HTx [] [AWrite 1 (pg 11); AWrite 2 (pg 12)] 2;
             HTx [(3, pg 33); (4, pg 44)] [AWrite 1 (pg 21); AWrite 5 (pg 55)] 5;
             HTx [] [AWrite 2 (pg 92)] 3; HTrunc 3] in
  exists s1, run_hsteps (init 2097153) hs = Some s1 /\
    let fs := ltxdir s1 ++ [mkLtx 9 9 0 0 1 []] in
    Forall wf_file fs /\
    match run_recv (init 2097153) fs with
    | Some s' => (txid s', pageN s', chk s' =? chk s1, chk s' =? fl (N.lxor (N.lxor 21 92) 33), lenN (dbfile s')) = (3, 3, true, true, 3)
    | None => False
    end.
Proof.
  cbn zeta. eexists. split; [vm_compute; reflexivity|]. cbn zeta.
  split; [apply wf_files_b_sound|]; vm_compute; reflexivity.
Qed.

(* Restart.  Open (db.go:481) reads the header, checkpoints whatever log it finds, recomputes every page checksum from the
   database file ([open_recomputed]) and re-applies the newest transaction file [f], verifying the checksum it names.
   From ANY state [s] - nothing is assumed about its caches - if Open succeeds then: the cache is the file's on every page
   and empty beyond the database ([RB]), the position is [f]'s, and its checksum is the from-scratch checksum of the database
   file.  Asked of [f]: page numbers from 1, no page twice, and a page it adds beyond the size the header names is among
   its pages (C02_growth_is_captured for the files a primary writes). *)
Theorem C04_open_recomputes : forall s f rest s',
  1 <= lockpg s -> rev (ltxdir s) = f :: rest -> wf_ltx f ->
  (forall x, pageN (open_recomputed s) < x <= l_commit f -> x <> lockpg s -> alookup x (l_pages f) <> None) ->
  op_open s = (Done, s') ->
  RB s' /\ lockpg s' = lockpg s /\ txid s' = l_max f /\ pageN s' = l_commit f /\ chk s' = l_post f /\
  chk s' = scratch (fun p => if p =? lockpg s' then 0 else file_h s' p) (pageN s').
Proof. exact open_checksum. Qed.
Print Assumptions C04_open_recomputes.

(* Non-vacuity: a restart right after a shrinking commit, before SQLite's truncate - the file still has 5 pages, the
   database 3 *)
Example C04_open_recomputes_nonvacuous :
  let pg h n := mkPg (fl h) n false in
  let hs := [HTx [] [AWrite 1 (pg 11 2); AWrite 2 (pg 12 0)] 2;
             HTx [(3, pg 33 0); (4, pg 44 0)] [AWrite 1 (pg 21 5); AWrite 5 (pg 55 0)] 5;
             HTx [] [AWrite 2 (pg 92 0); AWrite 1 (pg 31 3)] 3] in
  exists s f rest, run_hsteps (init 2097153) hs = Some s /\
    1 <= lockpg s /\ rev (ltxdir s) = f :: rest /\ wf_ltx f /\
    (forall x, pageN (open_recomputed s) < x <= l_commit f -> x <> lockpg s -> alookup x (l_pages f) <> None) /\
    match op_open s with
    | (Done, s') => (lenN (dbfile s), txid s', pageN s', chk s' =? chk s, lenN (dbfile s'), chk s' =? fl (N.lxor (N.lxor 31 92) 33))
                    = (5, 3, 3, true, 3, true)
    | _ => False
    end.
Proof.
  cbn zeta. eexists. eexists. eexists. split; [vm_compute; reflexivity|]. split; [vm_compute; discriminate|].
  split; [vm_compute; reflexivity|]. split; [apply wf_ltx_b_sound|split; [apply range_some_b_sound|]];
    vm_compute; reflexivity.
Qed.

(* WAL mode with every kind of checkpoint.  [os]: in any order and number -
     W2Commit frames commit   a committed WAL transaction ([wf_wal2] as above);
     W2Checkpoint             LiteFS's own checkpoint;
     W2Backfill p             SQLite copies the log's last committed version of page p (1 <= p <= database size) into the
                              database file - a write LiteFS sees in WAL mode (a checkpoint that goes part of the way);
     W2BackfillOld p q        ... or any other version q of a page that is in the log (readers hold the checkpoint back);
     W2SqlRestart             SQLite copies every page of the log within the database size, cuts the file to the database
                              size, and starts the log over with its next write - LiteFS forgets its WAL bookkeeping
                              ([sql_ckpt_ops]; the pages written are determined by the state, nothing is assumed).
   For EVERY such history the conclusions of C04_wal_checkpoint_history hold. *)
Theorem C04_wal_full_history : forall lock hs zf acts c os s1 s2 s' v',
  1 <= lock -> wf_hist (init lock) hs -> run_hsteps (init lock) hs = Some s1 ->
  wf_tx_any s1 zf acts -> run_group s1 (hops s1 (HTx zf acts c)) = (0, s2) -> wal_mode s2 = true ->
  wf_wops2 s2 os -> run_wops2 s2 (file_h s2) os = Some (s', v') ->
  chk s' = scratch (fun p => if p =? lock then 0 else v' p) (pageN s') /\
  (forall p, 1 <= p <= pageN s' -> p <> lock -> eff s' (pageN s') [] p = v' p) /\
  (wal_file s' = [] -> forall p, 1 <= p <= pageN s' -> p <> lock -> file_h s' p = v' p) /\ lockpg s' = lock.
Proof. exact wal_full_history_checksum. Qed.
Print Assumptions C04_wal_full_history.

Example C04_wal_full_history_nonvacuous :
  let pg h := mkPg (fl h) 0 false in
  let pw h := mkPg (fl h) 0 true in
  let hs := [HTx [] [AWrite 1 (pg 11); AWrite 2 (pg 12)] 2] in
  let sw := [AWrite 1 (pw 13)] in
  let os := [W2Commit [(2, pw 22); (3, pw 33); (2, pw 23)] 3; W2BackfillOld 2 (pw 22); W2Backfill 2; W2Commit [(1, pw 14)] 2; W2SqlRestart;
             W2Commit [(3, pw 35); (1, pw 15)] 3; W2Checkpoint] in
  exists s1 s2,
    wf_hist (init 2097153) hs /\ run_hsteps (init 2097153) hs = Some s1 /\
    wf_tx_any s1 [] sw /\ run_group s1 (hops s1 (HTx [] sw 2)) = (0, s2) /\ wal_mode s2 = true /\
    wf_wops2 s2 os /\
    match run_wops2 s2 (file_h s2) os with
    | Some (s', v') => (txid s', pageN s', chk s' =? fl (N.lxor (N.lxor (fl 15) (fl 23)) (fl 35)), length (wal_file s'),
                        map (file_h s') [1; 2; 3]) = (5, 3, true, 0%nat, [fl 15; fl 23; fl 35])
    | None => False
    end.
Proof. cbn zeta. apply (switch_by_check (fun s2 => wops2_by_check _ s2 (file_h s2) _)). vm_compute. auto. Qed.

(* All of it.  [gs]: a list of steps, each allowed in the journal mode the node is in ([wf_gsteps]):
     GJ h                 rollback-journal mode: a transaction that keeps the mode, or the truncate ([wf_step]);
     GSwitch zf acts c    rollback-journal mode: the transaction that leaves the database in WAL mode;
     GW o                 WAL mode: a commit, LiteFS's checkpoint, a page copied by SQLite, SQLite's complete checkpoint with
                          the restart of the log ([wf_wop2]);
     GLeave q c           WAL mode with nothing in the log: SQLite removes the log and rewrites page 1 (q, without the WAL
                          versions) under a rollback journal while the header still says WAL, and commits;
     GRestart             LiteFS restarts: Open, which checkpoints whatever log it finds, recomputes from the file and
                          re-applies the newest transaction file ([wf_restart]: that file is well-formed, has the pages it
                          adds beyond the header's size, and there is a database file or it writes page 1);
     GRecv f              the node, a replica for the moment, is sent a transaction file: refused when it does not continue
                          the position, else placed and applied ([wf_recv]: the file is well-formed and has the pages it adds
                          beyond the database size; in WAL mode the log has been checkpointed);
     GForward f ok        a replica that holds the halt lock forwards a transaction (handlePostTx): it has to continue the
                          position and its body has to verify ([ok]); then as GRecv;
     GDrop                the database is dropped;
     GImport pages commit a database image with every page 1..commit replaces whatever is there ([wf_import]).
   [v'] is the logical database [run_gsteps] computes: in WAL mode the overlay of frames on the file at the switch or at
   the last restart; otherwise the file.  For EVERY such history from an empty node: in rollback-journal mode the
   position's checksum (once there is one) is the from-scratch checksum of the database file and the cache is the file's;
   in WAL mode it is the from-scratch checksum of [v'], pageChecksum answers [v'], and with nothing in the log the file
   is [v']. *)
Theorem C04_history : forall lock gs s' v',
  1 <= lock -> wf_gsteps (init lock) gs -> run_gsteps (init lock) (fun _ => 0) gs = Some (s', v') ->
  lockpg s' = lock /\
  (wal_mode s' = false -> (txid s' <> 0 -> chk s' = scratch (fun p => if p =? lock then 0 else file_h s' p) (pageN s')) /\
                          (forall p, 1 <= p <= pageN s' -> p <> lock -> dbc s' p = file_h s' p)) /\
  (wal_mode s' = true -> chk s' = scratch (fun p => if p =? lock then 0 else v' p) (pageN s') /\
                         (forall p, 1 <= p <= pageN s' -> p <> lock -> eff s' (pageN s') [] p = v' p) /\
                         (wal_file s' = [] -> forall p, 1 <= p <= pageN s' -> p <> lock -> file_h s' p = v' p)).
Proof. exact g_history_checksum. Qed.
Print Assumptions C04_history.

(* Non-vacuity: create the database; restart; switch to WAL mode; a WAL transaction that grows the database; restart with the
   log in place; another transaction; SQLite's complete checkpoint with the restart of the log; back to rollback-journal
   mode; a rollback-journal transaction; a file from the stream applied, a stray one refused; a forwarded transaction refused,
   one applied; a drop; an import *)
Example C04_history_nonvacuous :
  let pg h n := mkPg (fl h) n false in
  let pw h n := mkPg (fl h) n true in
  let x3 a b c := fl (N.lxor (N.lxor (fl a) (fl b)) (fl c)) in
  let gs := [GJ (HTx [] [AWrite 1 (pg 11 2); AWrite 2 (pg 19 0); AFail 2; AWrite 2 (pg 12 0)] 2);
             GRestart;
             GSwitch [] [AWrite 1 (pw 13 2)] 2;
             GW (W2Commit [(1, pw 14 3); (3, pw 33 0); (2, pw 23 0)] 3);
             GRestart;
             GW (W2Commit [(2, pw 24 0)] 3);
             GW W2SqlRestart;
             GLeave (pg 15 3) 3;
             GJ (HTx [] [AWrite 3 (pg 36 0)] 3);
             GRecv (mkLtx 7 7 (x3 15 24 36) (x3 15 27 36) 3 [(2, pg 27 0)]);
             GRecv (mkLtx 9 9 0 0 1 []);
             GForward (mkLtx 8 8 0 0 1 []) true;
             GForward (mkLtx 8 8 (x3 15 27 36) (x3 18 27 36) 3 [(1, pg 18 3)]) true;
             GDrop;
             GImport [(1, pg 41 2); (2, pg 42 0)] 2] in
  wf_gsteps (init 2097153) gs /\
  match run_gsteps (init 2097153) (fun _ => 0) gs with
  | Some (s', v') => (wal_mode s', txid s', pageN s', chk s' =? fl (N.lxor (fl 41) (fl 42)), lenN (dbfile s'),
                      map (file_h s') [1; 2; 3]) = (false, 10, 2, true, 2, [fl 41; fl 42; 0])
  | None => False
  end.
Proof. cbn zeta. apply gsteps_by_check. vm_compute. reflexivity. Qed.

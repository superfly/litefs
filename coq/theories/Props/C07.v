(* C07 -- A node without write authority cannot change a replicated database.  ONLY statements.
   Model/PageDB.v (the operations behind the mount and the import endpoint, each with LiteFS's
   Writeable() gate where the code has one) + Model/ReadOnly.v ([app_op]: the operations an
   application can cause; [view]: the logical pages 1..pageN, position, transaction log, size and
   journal mode; the errno table of the FUSE handlers).  [quiet s]: no write authority and no WAL
   content of its own - what a replica is between stream applies (role change checkpoints the WAL).
   A non-writeable node that still has committed WAL frames (the window between losing the lease and
   the role-change recovery) is outside [quiet]: there TruncateWAL/RemoveWAL are not gated by the code. *)
From Coq Require Import NArith List.
Require Import LF.Model.PageDB LF.Model.ReadOnly LF.Proofs.ReadOnlyProofs.
Import ListNotations.
Local Open Scope N_scope.

(* any sequence of application-level operations leaves the database exactly as it was *)
Theorem C07_readonly_run : forall ops s, quiet s -> forallb app_op ops = true ->
  view (run_all s ops) = view s /\ quiet (run_all s ops).
Proof. exact readonly_run. Qed.
(* and each operation that would change it is refused *)
Theorem C07_readonly_refused : forall ops s, quiet s -> forallb app_op ops = true ->
  forall i o, nth_error ops i = Some o -> mutating o = true -> nth_error (outcomes s ops) i <> Some Done.
Proof. exact readonly_refused. Qed.
(* a commit step that begins after write authority is lost is refused, not published - in any state *)
Theorem C07_late_commit_refused : forall s o, writeable s = false ->
  match o with OCommitJournal _ | OCommitWal _ _ | ODrop | OImport _ _ _ => True | _ => False end ->
  fst (step s o) <> Done /\ txid (snd (step s o)) = txid s /\ chk (snd (step s o)) = chk s /\ ltxdir (snd (step s o)) = ltxdir s.
Proof. exact late_commit_refused. Qed.
(* page, journal and WAL writes are answered with the read-only permission error *)
Theorem C07_writes_get_eacces : forall h pr ss hw, In h [HWriteDB; HWriteJournal; HWriteWAL] -> answer_of h false pr ss hw = AAccess.
Proof. exact writes_get_eacces. Qed.
Theorem C07_nothing_that_changes_succeeds : forall h ss hw, changes_database h = true -> answer_of h false false ss hw <> AOk.
Proof. exact nothing_that_changes_succeeds. Qed.

(* Non-vacuity: a replica that received a two-page database; a page write, a journal commit, a drop
   and an import are refused, the WAL resets and the same-size truncate go through, the view stays *)
Example C07_nonvacuous :
  let p1 := mkPg 11 2 false in let p2 := mkPg 12 0 false in
  let f := mkLtx 1 1 0 (fl (N.lxor (fl (N.lxor 0 11)) 12)) 2 [(1, p1); (2, p2)] in
  let s := snd (step (set_writeable (init 1000) false) (OReceive f)) in
  let ops := [OWrite 2 (mkPg 99 0 false); OCommitJournal 2; OWalTruncate; OTruncate 2; ODrop; OImport [(1, p1)] 1 true; OWalHeader] in
  (txid s, map ocode (outcomes s ops), fst (op_export (run_all s ops)))
  = (1, [1; 1; 0; 0; 1; 1; 0], [Some p1; Some p2]).
Proof. vm_compute. reflexivity. Qed.

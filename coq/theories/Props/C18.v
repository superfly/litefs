(* C18 -- Stream frames, position maps and chunked bodies round-trip and fail
   safely.  ONLY statements; proofs are `exact <lemma>` (or vm_compute for
   closed witnesses).  A reader is a [stream] = the list of segments successive
   Read calls return, so "no matter how the bytes are split across reads" is
   the quantification over all [s] with a given [concat s].  All decoders are
   structurally recursive total functions whose result type has no panic
   constructor: termination and panic-freedom on arbitrary bytes hold by
   construction of the model (and are exercised on the code by the harness). *)
From Coq Require Import NArith List.
Require Import LF.Base.Bytes LF.Model.Codec LF.Proofs.CodecProofs.
Import ListNotations.
Local Open Scope N_scope.

(* every frame value that can be written is read back identically, with the
      unread remainder untouched, for every segmentation *)
Theorem C18_frame_roundtrip : forall typ lay vs s tail,
  layout_of typ = Some lay -> wf_vals lay vs -> concat s = encode_frame typ vs ++ tail ->
  exists s', decode_frame s = DOk (typ, vs) s' /\ concat s' = tail.
Proof. exact frame_roundtrip. Qed.

(* every proper prefix of an encoding is an error: clean EOF only for the empty
      prefix (end of stream between frames), ErrUnexpectedEOF otherwise *)
Theorem C18_frame_prefix_error : forall typ lay vs s p q,
  layout_of typ = Some lay -> wf_vals lay vs -> encode_frame typ vs = p ++ q -> q <> [] -> concat s = p ->
  decode_frame s = match p with [] => DEOF | _ => DUnexpected end.
Proof. exact frame_prefix. Qed.

(* arbitrary bytes: whatever is accepted re-encodes to exactly the bytes consumed
      (never a silently different value), and is a well-formed value of a known type *)
Theorem C18_frame_no_different_value : forall s typ vs s',
  bytes_ok (concat s) -> decode_frame s = DOk (typ, vs) s' ->
  concat s = encode_frame typ vs ++ concat s' /\ exists lay, layout_of typ = Some lay /\ wf_vals lay vs.
Proof. exact frame_sound. Qed.

(* position maps *)
Theorem C18_posmap_roundtrip : forall m s tail,
  Forall (wf_vals pos_layout) m -> N.of_nat (length m) < 2 ^ 32 ->
  concat s = encode_posmap m ++ tail ->
  exists s', decode_posmap s = DOk m s' /\ concat s' = tail.
Proof. exact posmap_roundtrip. Qed.

Theorem C18_posmap_prefix_error : forall m s p q,
  Forall (wf_vals pos_layout) m -> N.of_nat (length m) < 2 ^ 32 ->
  encode_posmap m = p ++ q -> q <> [] -> concat s = p ->
  forall v s', decode_posmap s <> DOk v s'.
Proof. exact posmap_prefix. Qed.

(* chunked bodies: any list of writes (any sizes, including 0 and > 65535) *)
Theorem C18_chunk_roundtrip : forall ws s tail,
  concat s = chunk_write ws ++ chunk_close ++ tail ->
  exists s', chunk_read_all true s = (concat ws, CClean s') /\ concat s' = tail.
Proof. exact chunk_roundtrip. Qed.

Theorem C18_chunk_prefix_error : forall ws s p q,
  chunk_write ws ++ chunk_close = p ++ q -> q <> [] -> concat s = p ->
  snd (chunk_read_all true s) = CUnexpected.
Proof. exact chunk_prefix. Qed.

(* memory in proportion to the bytes received (model of the repaired ReadFrom) *)
Theorem C18_alloc_proportional : forall s, alloc_frame false s <= 1044 + 2 * avail s.
Proof. exact alloc_frame_bound. Qed.

(* ReadFullAt returns exactly the requested bytes or an error *)
Theorem C18_read_full_at : forall file n off b,
  read_full_at file n off = RFAOk b <->
  (n <= N.of_nat (length (skipn (N.to_nat off) file)) /\ b = firstn (N.to_nat n) (skipn (N.to_nat off) file)).
Proof. exact read_full_at_ok. Qed.

(* Refuted twins: the same statements are FALSE of the faithful model of the code
   as it stood before the two `fix:` commits (KNOWN_FINDINGS.txt: fixed F1, F13). *)
Theorem C18_alloc_prealloc_refuted :
  exists s, avail s = 16 /\ alloc_frame true s > 4 * 1024 * 1024 * 1024.
Proof. exists [[0;0;0;1; 0;0;0;0;0;0;0;0; 255;255;255;255]]. vm_compute. split; reflexivity. Qed.

Theorem C18_chunk_silent_eof_refuted :
  exists ws p q s, chunk_write ws ++ chunk_close = p ++ q /\ q <> [] /\ concat s = p /\
                   snd (chunk_read_all false s) = CSilentEOF.
Proof.
  exists [[7;8;9]], [0;3], [7;8;9;0;0], [[0;3]]. vm_compute.
  split; [reflexivity|]. split; [discriminate|]. split; reflexivity.
Qed.

(* Non-vacuity *)
Example C18_nonvacuous_frame :
  decode_frame [[0;0];[0;1;0;0;0;0;0;0];[1;2;0;0;0;3;100];[98;99;42]] = DOk (1, [VInt 258; VBytes [100;98;99]]) [[42]]
  /\ wf_vals [FU64; FBytes] [VInt 258; VBytes [100;98;99]].
Proof. split; [vm_compute; reflexivity|]. cbn. repeat split; try (vm_compute; reflexivity); repeat constructor. Qed.

Example C18_nonvacuous_chunk :
  chunk_read_all true [[0;2;5];[6;0;1;7;0;0;9]] = ([5;6;7], CClean [[9]]).
Proof. vm_compute. reflexivity. Qed.

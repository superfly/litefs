(* C13 -- Write forwarding under a halt lock is exclusive, ordered and acknowledged.  ONLY statements.
   Model/Halt.v: a primary P (log [plog], granted halt lock [phalt]), the replica R that takes the lock
   ([rlock], [rlog]) over a network that loses responses and requests, an observer replica O ([olog]);
   [step] is one event (grant, local write, checkpoint, replica commit, release, expiry, a foreign
   POST /tx, a hand-over of the primary role to O), [settle] the replication stream that follows it.  [ohalt] is the
   halt lock a former primary still holds on its own database: until it expires that node cannot follow the stream, which
   is the one exception in C13_reaches_every_replica.  Logs are lists of
   (txid, checksum before, checksum after, producer).  [Inv]: P's log is a linked chain and both
   replicas hold a suffix of it.  Real-time aspects (TTL clock, time-outs, a release racing the apply
   inside one /tx request) are not in the model: expiry is an event between requests. *)
From Coq Require Import NArith List.
Require Import LF.Model.Halt LF.Proofs.HaltProofs.
Require Import LF.Base.RWBase LF.Model.Locks LF.Proofs.LocksProofs.
Import ListNotations.
Local Open Scope N_scope.

(* exclusive: from grant to release / expiry the primary commits no local transaction, runs no checkpoint *)
Theorem C13_halted_refuses_local : forall s post id p, phalt s = Some (id, p) ->
  step s (ELocalWrite post) = (s, c_refused) /\ step s ECheckpoint = (s, c_refused).
Proof. exact halted_refuses_local. Qed.
Theorem C13_halted_log_moves_only_by_holder : forall s e s' c id p,
  phalt s = Some (id, p) -> step s e = (s', c) -> plog s' <> plog s ->
  (exists post d, (e = ECommit post d \/ e = ECommitWal post d) /\ holds (rlock s) id = true) \/ (exists post, e = EForeign id post).
Proof. exact halted_log_moves_only_by_holder. Qed.
(* ... which on the lock table means: the grant's guard set keeps every other owner out of RESERVED
   (rollback journal) and of WRITE and CKPT (WAL) - the generated RWMutex model of C11 *)
Theorem C13_halt_guard_blocks_writers : forall t g wal t' h,
  TInv t -> (forall l, gst (t l) g = Unlocked) -> try_acquire_write t g wal = Some (true, t') -> h <> g ->
  (wal = false -> exists t2, t_trylock t' LReserved h = Some (false, t2)) /\
  (wal = true -> (exists t2, t_trylock t' LWrite h = Some (false, t2)) /\ (exists t2, t_trylock t' LCkpt h = Some (false, t2))).
Proof. exact halt_guard_blocks_writers. Qed.

(* start: the replica writes from exactly the position the lock was granted at = the primary's *)
Theorem C13_grant_position : forall s id s', Inv s -> step s (EGrant id true) = (s', c_ok) ->
  exists l, rlock s' = Some l /\ phalt s' = Some l /\ fst l = id /\ pos_of (rlog s') = snd l /\
    (phalt s = None -> snd l = pos_of (plog s') /\ rlog s' = plog s').
Proof. exact grant_ok_position. Qed.

(* ordered and acknowledged: when the replica's commit returns, the primary has applied that very
   transaction, under the same id and checksum, on top of the same history *)
Theorem C13_commit_acknowledged : forall s post d s', Inv s -> step s (ECommit post d) = (s', c_ok) ->
  exists id g, rlock s = Some (id, g) /\ holds (phalt s) id = true /\ rlog s = plog s /\
    plog s' = next_entry (rlog s) post 1 :: plog s /\ rlog s' = plog s' /\ pos_of (rlog s') = (fst (pos_of (rlog s)) + 1, post).
Proof. exact commit_acknowledged. Qed.
(* then it reaches every other replica (and, if the acknowledgement was lost, the committing replica
   itself): after each event and the stream that follows, both replicas hold the primary's history *)
Theorem C13_reaches_every_replica : forall s e s' c, Inv s -> step_settled s e = (s', c) ->
  rlog s' = plog s' /\ (ohalt s' = None -> olog s' = plog s').
Proof. exact step_settled_converged. Qed.
Theorem C13_reachable : forall es s0, Inv s0 -> rlog s0 = plog s0 -> (ohalt s0 = None -> olog s0 = plog s0) ->
  Inv (final s0 es) /\ rlog (final s0 es) = plog (final s0 es) /\
  (ohalt (final s0 es) = None -> olog (final s0 es) = plog (final s0 es)).
Proof. exact final_converged. Qed.
Theorem C13_init : Inv init.
Proof. exact inv_init. Qed.

(* holder only: a forwarded file is applied only under the id of the lock granted now, and only if it
   extends the primary's history; without the lock it is refused and nothing changes *)
Theorem C13_forward_needs_holder : forall s id e s', forward s id e = (s', true) ->
  exists p, phalt s = Some (id, p) /\ e_txid e = fst (pos_of (plog s)) + 1 /\ e_pre e = snd (pos_of (plog s)).
Proof. exact forward_needs_holder. Qed.
Theorem C13_forward_without_lock_refused : forall s id e, holds (phalt s) id = false -> forward s id e = (s, false).
Proof. exact forward_without_lock_refused. Qed.

(* idempotent acquire; a different id is refused while the lock is granted *)
Theorem C13_grant_idempotent : forall s id s1 l, grant s id = (s1, Some l) -> grant s1 id = (s1, Some l).
Proof. exact grant_idempotent. Qed.
Theorem C13_grant_other_id_refused : forall s id i p, phalt s = Some (i, p) -> i <> id -> grant s id = (s, None).
Proof. exact grant_other_id_refused. Qed.

(* release / expiry: the primary writes again, the former holder cannot publish *)
Theorem C13_release_frees : forall s s' id g, rlock s = Some (id, g) -> holds (phalt s) id = true ->
  step s (ERelease true) = (s', c_ok) -> phalt s' = None /\ rlock s' = None /\ plog s' = plog s.
Proof. exact release_frees. Qed.
Theorem C13_expire_frees : forall s, phalt (fst (step s EExpire)) = None /\ plog (fst (step s EExpire)) = plog s.
Proof. exact expire_frees. Qed.
Theorem C13_free_primary_writes : forall s post, phalt s = None -> snd (step s (ELocalWrite post)) = c_ok.
Proof. exact free_primary_writes. Qed.
Theorem C13_former_holder_cannot_publish : forall s post d, phalt s = None -> step s (ECommit post d) = (s, c_refused).
Proof. exact former_holder_cannot_publish. Qed.
Theorem C13_replica_without_lock_cannot_write : forall s post d, rlock s = None -> step s (ECommit post d) = (s, c_refused).
Proof. exact replica_without_lock_cannot_write. Qed.

(* both journal modes: on a WAL-mode database the commit is the same commit, except that a forward which is
   refused or whose answer is lost ends in a restart of the replica (fail-stop) instead of a rollback; an
   acknowledged WAL commit is an acknowledged commit (C13_commit_acknowledged applies to it) *)
Theorem C13_commit_wal_spec : forall s post d,
  step s (ECommitWal post d) =
  (let '(s1, c) := step s (ECommit post d) in if c =? c_ok then (s1, c) else (restart s1, c)).
Proof. exact commit_wal_spec. Qed.
Theorem C13_commit_wal_acknowledged : forall s post d s',
  step s (ECommitWal post d) = (s', c_ok) -> step s (ECommit post d) = (s', c_ok).
Proof. exact commit_wal_acknowledged. Qed.

(* a replica that restarts while it holds the lock (in WAL mode: whose forwarded commit failed) has forgotten
   it and is read-only again; the primary stays halted until release by id or expiry *)
Theorem C13_restart_forgets : forall s post d,
  let s1 := fst (step s ERestart) in
  rlock s1 = None /\ plog s1 = plog s /\ phalt s1 = phalt s /\ rlog s1 = rlog s /\ step s1 (ECommit post d) = (s1, c_refused).
Proof. exact restart_forgets. Qed.

(* primary change while a halt is held.  The role is handed to a connected, caught-up replica (the only hand-over the
   model has); the history is the same, so nothing acknowledged is lost; the new primary has granted no lock, writes at
   once, and whatever the former holder forwards - under any lock id - is refused and changes nothing; the former primary
   keeps the lock it had granted and cannot follow the new primary until that lock expires; then everybody converges *)
Theorem C13_handoff_spec : forall s s', step s EHandoff = (s', c_ok) ->
  ohalt s = None /\ olog s = plog s /\ plog s' = plog s /\ olog s' = plog s /\ phalt s' = None /\ ohalt s' = phalt s /\
  rlock s' = rlock s /\ rlog s' = rlog s.
Proof. exact handoff_spec. Qed.
Theorem C13_handoff_refused_changes_nothing : forall s s', step s EHandoff = (s', c_refused) -> s' = s.
Proof. exact handoff_refused. Qed.
Theorem C13_handoff_accepted_when_converged : forall s, ohalt s = None -> olog s = plog s -> snd (step s EHandoff) = c_ok.
Proof. exact handoff_accepted_when_converged. Qed.
Theorem C13_handoff_to_stuck_node_refused : forall s p, ohalt s = Some p -> step s EHandoff = (s, c_refused).
Proof. exact handoff_to_stuck_node_refused. Qed.
Theorem C13_handoff_new_primary_free : forall s s' post d, step s EHandoff = (s', c_ok) ->
  snd (step s' (ELocalWrite post)) = c_ok /\ step s' (ECommit post d) = (s', c_refused) /\
  (forall id e, forward s' id e = (s', false)).
Proof. exact handoff_new_primary_free. Qed.
Theorem C13_former_primary_stuck_until_expiry : forall s p, ohalt s = Some p -> stream_o s = s.
Proof. exact former_primary_stuck. Qed.
Theorem C13_expire_unsticks : forall s, ohalt (fst (step s EExpire)) = None /\ phalt (fst (step s EExpire)) = None.
Proof. exact expire_unsticks. Qed.
Theorem C13_expire_settled_converges : forall s s' c, Inv s -> step_settled s EExpire = (s', c) ->
  rlog s' = plog s' /\ olog s' = plog s'.
Proof. exact expire_settled_converges. Qed.

(* Non-vacuity: grant, blocked local write, two forwarded commits (the second unacknowledged), the stream
   repairs the replica and clears its stale lock, expiry, the primary writes again *)
Example C13_nonvacuous :
  run (start_of [5; 6]) [EGrant 11 true; ELocalWrite 9; ECommit 7 true; ECommit 8 false; EExpire; ELocalWrite 10; ECommit 12 true]
  = [[1; 2; 6; 2; 6; 2; 6; 11; 11; 0]; [0; 2; 6; 2; 6; 2; 6; 11; 11; 0]; [1; 3; 7; 3; 7; 3; 7; 11; 11; 0]; [2; 4; 8; 4; 8; 4; 8; 11; 0; 0];
     [1; 4; 8; 4; 8; 4; 8; 0; 0; 0]; [1; 5; 10; 5; 10; 5; 10; 0; 0; 0]; [0; 5; 10; 5; 10; 5; 10; 0; 0; 0]].
Proof. vm_compute. reflexivity. Qed.
(* ... and a primary change while halted: the hand-over, the former holder's commit refused, the new primary writes, the
   former primary (third position) stays behind with its lock (last number) until expiry, a hand-over back to it is
   refused meanwhile and accepted afterwards *)
Example C13_handoff_nonvacuous :
  run (start_of [5; 6]) [EGrant 11 true; ECommit 7 true; EHandoff; ECommit 8 true; ELocalWrite 9; EHandoff; EExpire; EHandoff; ELocalWrite 10]
  = [[1; 2; 6; 2; 6; 2; 6; 11; 11; 0]; [1; 3; 7; 3; 7; 3; 7; 11; 11; 0]; [1; 3; 7; 3; 7; 3; 7; 0; 11; 11]; [0; 3; 7; 3; 7; 3; 7; 0; 11; 11];
     [1; 4; 9; 4; 9; 3; 7; 0; 0; 11]; [0; 4; 9; 4; 9; 3; 7; 0; 0; 11]; [1; 4; 9; 4; 9; 4; 9; 0; 0; 0]; [1; 4; 9; 4; 9; 4; 9; 0; 0; 0];
     [1; 5; 10; 5; 10; 5; 10; 0; 0; 0]].
Proof. vm_compute. reflexivity. Qed.

(* a grant whose position the replica does not reach in time is given back and forgotten: the replica is not the holder *)
Theorem C13_grant_not_reached_forgets : forall s id s' post d, step s (EGrant id true) = (s', c_refused) ->
  grant s id <> (fst (grant s id), None) -> rlock s' = None /\ step s' (ECommit post d) = (s', c_refused).
Proof. exact grant_not_reached_forgets. Qed.

(* "the replica starts writing from exactly the primary's position" when it is BEHIND at the moment of the grant (by any
   number of transactions): the stream brings it to the granted position, and it then holds the lock the primary
   granted.  [grant_wait _ _ false] is the order of AcquireRemoteHaltLock after the repair (wait, then store). *)
Theorem C13_grant_to_lagging_replica : forall s id, Inv s -> phalt s = None -> id <> 0 ->
  snd (grant_wait s id false) = c_ok /\
  rlock (fst (grant_wait s id false)) = Some (id, pos_of (plog s)) /\
  phalt (fst (grant_wait s id false)) = Some (id, pos_of (plog s)) /\
  rlog (fst (grant_wait s id false)) = plog s /\ plog (fst (grant_wait s id false)) = plog s.
Proof. exact grant_wait_holds. Qed.
(* the order before the repair (store, then wait), one transaction behind: the request succeeds, the primary is halted
   for lock 61, and the replica holds nothing - the catch-up transaction cleared the lock it had just stored *)
Example C13_lock_stored_before_the_wait_is_lost :
  let '(s', c) := grant_wait (behind_state [5; 6; 7] 1) 61 true in
  (c, id_of (phalt s'), id_of (rlock s'), fst (pos_of (rlog s'))) = (c_ok, 61, 0, 3) /\
  behind_obs [5; 6; 7] 1 61 = [1; 3; 7; 3; 7; 61; 61].
Proof. vm_compute. split; reflexivity. Qed.


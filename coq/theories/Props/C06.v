(* C06 -- Divergent or stale replicas are resnapshotted, never patched.  ONLY statements.
   Model/Repl.v: [stream_decide ppos dir cpos] is one iteration of the primary's streamDB/streamLTX
   loop for a client reporting position cpos, against primary position ppos and log dir.
   PageDB.op_receive_checked / op_forward: the replica's stream handler (after the F14 repair)
   and the forwarding endpoint. *)
From Coq Require Import NArith List.
Require Import LF.Model.PageDB LF.Model.Repl LF.Proofs.ChainProofs LF.Proofs.ReplProofs.
Import ListNotations.
Local Open Scope N_scope.

(* an incremental file is sent only when it starts at the client's TXID + 1 with a pre-checksum equal
   to the client's checksum, and the client's position survived both invalidation rules *)
Theorem C06_send_ltx_only_if_extends : forall ppos dir cpos f,
  stream_decide ppos dir cpos = ASendLTX f ->
  In f dir /\ l_min f = fst cpos + 1 /\ l_max f = fst cpos + 1 /\ l_pre f = snd cpos /\
  fst cpos < fst ppos /\ effective_client ppos cpos = cpos.
Proof. exact send_ltx_only_if_extends. Qed.

(* the four ways of not being on the primary's history, and the empty client, all get a snapshot *)
Theorem C06_ahead_gets_snapshot : forall ppos dir cpos,
  fst ppos < fst cpos -> 1 <= fst ppos -> stream_decide ppos dir cpos = ASnapshot.
Proof. exact ahead_gets_snapshot. Qed.
Theorem C06_same_txid_other_checksum_gets_snapshot : forall ppos dir cpos,
  fst cpos = fst ppos -> snd cpos <> snd ppos -> 1 <= fst ppos -> stream_decide ppos dir cpos = ASnapshot.
Proof. exact same_txid_other_checksum_gets_snapshot. Qed.
Theorem C06_pre_mismatch_gets_snapshot : forall ppos dir cpos f,
  fst cpos < fst ppos -> open_ltx dir (fst cpos + 1) = Some f -> l_pre f <> snd cpos -> stream_decide ppos dir cpos = ASnapshot.
Proof. exact pre_mismatch_gets_snapshot. Qed.
Theorem C06_gap_gets_snapshot : forall ppos dir cpos,
  fst cpos < fst ppos -> open_ltx dir (fst cpos + 1) = None -> stream_decide ppos dir cpos = ASnapshot.
Proof. exact missing_file_gets_snapshot. Qed.
Theorem C06_empty_client_gets_snapshot : forall ppos dir c,
  1 <= fst ppos -> stream_decide ppos dir (0, c) = ASnapshot.
Proof. exact empty_client_gets_snapshot. Qed.
Theorem C06_done_iff_caught_up : forall ppos dir cpos,
  stream_decide ppos dir cpos = ADone <-> fst ppos <= fst (effective_client ppos cpos).
Proof. exact done_iff_caught_up. Qed.

(* files that do not extend the node's exact (TXID, checksum), or whose body does not verify, are
   refused and the node's whole state is unchanged -- on the stream and on the forwarding endpoint *)
Theorem C06_stream_rejects_nonextending : forall s f ok,
  is_snapshot f = false -> extends_pos s f = false -> op_receive_checked s f ok = (Failed, s).
Proof. exact receive_checked_rejects_nonextending. Qed.
Theorem C06_stream_rejects_corrupt : forall s f, op_receive_checked s f false = (Failed, s).
Proof. exact receive_checked_rejects_corrupt. Qed.
Theorem C06_forward_rejects_nonextending : forall s f ok,
  extends_pos s f = false -> op_forward s f ok = (Failed, s).
Proof. exact forward_rejects. Qed.
(* a whole-database file is taken only by a database still at position 0 *)
Theorem C06_forward_whole_db_only_at_zero : forall s f ok s',
  is_snapshot f = true -> op_forward s f ok = (Done, s') -> txid s = 0 /\ l_pre f = chk s.
Proof. exact forward_whole_db_only_at_zero. Qed.
Theorem C06_forward_rejects_corrupt : forall s f, op_forward s f false = (Failed, s).
Proof. exact forward_rejects_corrupt. Qed.

(* after a snapshot the replica's log is exactly that snapshot *)
Theorem C06_snapshot_replaces_chain : forall s f s',
  is_snapshot f = true -> op_receive s f = (Done, s') -> ltxdir s' = [f].
Proof. exact snapshot_replaces_chain. Qed.

(* Non-vacuity: a fork (same TXID, other checksum), a client ahead, and a client on the chain *)
Example C06_nonvacuous :
  let dir := [mkLtx 1 1 0 11 1 []; mkLtx 2 2 11 12 1 []; mkLtx 3 3 12 13 1 []] in
  (stream_decide (3, 13) dir (3, 99), stream_decide (3, 13) dir (5, 1), run_stream_case (3, 13) [(1,1,0,11);(2,2,11,12);(3,3,12,13)] (1, 11))
  = (ASnapshot, ASnapshot, [1;2;1;3;0]).
Proof. vm_compute. reflexivity. Qed.

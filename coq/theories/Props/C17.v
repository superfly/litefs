(* C17 -- Journal rollback and WAL scanning follow SQLite's validity rules on any bytes.
   ONLY statements.  Model/WalJournal.v is a byte-level model (files = lists of bytes) of
   WALReader, buildTxFrameOffsets and JournalReader (after the repairs F2/F3/F18 recorded in
   KNOWN_FINDINGS.txt).  [valid_prefix] is the file-format rule written as an inductive predicate
   over the split of the bytes into frames, not as a reader. *)
From Coq Require Import ZArith List.
Require Import LF.Model.WalJournal LF.Proofs.WalJournalProofs.
Import ListNotations.
Local Open Scope N_scope.

(* For EVERY byte sequence: the frames the reader treats as valid are exactly the longest prefix of
   frames whose salts equal the header's and whose cumulative checksums match (existence and
   uniqueness of that prefix). *)
Theorem C17_wal_reader_is_longest_valid_prefix : forall b h fs,
  wal_read b = (HOk h, fs) ->
  valid_prefix h (skipn 32 b) (wh_ck1 h) (wh_ck2 h) fs /\
  (forall fs', valid_prefix h (skipn 32 b) (wh_ck1 h) (wh_ck2 h) fs' -> fs' = fs).
Proof. exact wal_reader_is_longest_valid_prefix. Qed.

(* buildTxFrameOffsets (used by CommitWAL, C03): from an offset whose running checksum is (c1, c2) it
   returns a transaction iff the valid prefix from there contains a commit frame; the transaction is
   the frames up to and including the FIRST commit frame (none of the earlier ones commits) *)
Theorem C17_build_tx_some : forall h b fuel off c1 c2 acc fs commit endoff d1 d2,
  build_tx fuel h b off c1 c2 acc = Some (fs, commit, endoff, d1, d2) ->
  exists tx, fs = acc ++ tx /\ tx <> [] /\
    (exists rest, valid_prefix h (skipn endoff b) d1 d2 rest /\ valid_prefix h (skipn off b) c1 c2 (tx ++ rest)) /\
    f_commit (last tx {| f_pgno := 0; f_commit := 0; f_data := [] |}) = commit /\ commit <> 0 /\
    Forall (fun f => f_commit f = 0) (removelast tx).
Proof. exact build_tx_spec. Qed.
Theorem C17_build_tx_none : forall h b fuel off c1 c2 acc,
  (length b < fuel + off)%nat -> build_tx fuel h b off c1 c2 acc = None ->
  forall fs, valid_prefix h (skipn off b) c1 c2 fs -> Forall (fun f => f_commit f = 0) fs.
Proof. exact build_tx_none. Qed.

(* arbitrary journal bytes: the segment loop of rollbackJournal always ends (no hang); there is no panic
   outcome in the model: the divisions by sector and page size are only reached with sizes accepted by
   SQLite's validity rules *)
Theorem C17_journal_reader_terminates : forall b ps, snd (jrun (S (length b)) b (jinit ps) []) <> 98.
Proof. exact jrun_terminates. Qed.

(* playback never writes outside the database's pages, for ANY record list *)
Theorem C17_playback_inside : forall lock commit recs pg d,
  In (pg, d) (playback lock commit recs) -> 1 <= pg <= commit /\ pg <> lock /\ In (pg, d) recs.
Proof. exact playback_inside. Qed.

(* journals SQLite leaves behind: records are pre-images of pages of the original database, every page
   the interrupted transaction overwrote has its record (write-ahead rule).  Then playback keeps every
   record and restores exactly the pre-transaction content *)
Theorem C17_playback_keeps_sqlite_records : forall lock commit recs,
  (forall pg d, In (pg, d) recs -> 1 <= pg <= commit /\ pg <> lock) -> playback lock commit recs = recs.
Proof. exact playback_id. Qed.
Theorem C17_rollback_restores : forall (pre cur : N -> list N) recs,
  (forall pg d, In (pg, d) recs -> d = pre pg) ->
  (forall p, (forall d, ~ In (p, d) recs) -> cur p = pre p) ->
  forall p, write_all recs cur p = pre p.
Proof. exact rollback_restores. Qed.

(* Non-vacuity: a little-endian WAL header with a zero page-size field and two 24-byte frames is parsed;
   a journal with sector size 0 is rejected instead of looping *)
Example C17_nonvacuous_journal :
  run_bcase (CJournal 512 ([217;213;5;249;32;161;99;215; 0;0;0;1; 0;0;0;7; 0;0;0;3; 0;0;0;0; 0;0;2;0] ++ repeat 0 600)) = [5001; 0; 0].
Proof. vm_compute. reflexivity. Qed.

(* a log header the reader accepts names a page size SQLite accepts (a power of two in 512..65536), in particular a
   multiple of 8: the checksum of a frame is never asked for a misaligned byte string *)
Theorem C17_valid_header_page_size : forall b h, wal_read_header b = HOk h ->
  wal_ps_ok (wh_ps h) = true /\ (wh_ps h mod 8 = 0)%N.
Proof. exact wal_header_page_size. Qed.

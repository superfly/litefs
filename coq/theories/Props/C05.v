(* C05 -- Any crash point recovers to exactly the position of the newest LTX file.
   Model/Crash.v: the durable state of one database ([disk]: database file, hot journal, transaction
   files), the durable steps of a local rollback-journal commit ([tx_steps]: journal header, any
   interleaving of journal records and page writes in which SQLite journals a page before it overwrites
   it, rename of the transaction file, journal finalisation, cut to the new size), of a replica's
   apply ([apply_steps]) and snapshot ([snapshot_steps]); a crash is a prefix [firstn k]; [recover] is
   Open (hot journal rolled back, newest file re-applied).  [Consistent d] (Proofs/CrashProofs.v): no hot journal and the
   database is the image of the newest file.  Process death: completed writes survive, in order.
   Model/CrashWal.v adds the write-ahead log: [wdisk], the steps of a WAL commit ([wal_tx_steps]: frames, then
   the rename) and of a checkpoint ([ckpt_steps]: page copies, cut, optional restart), and [wrecover] (log cut
   back to the newest file or discarded if of another generation, checkpoint, re-apply).  Between transactions
   the log holds committed frames only (frames of rolled-back transactions are not modelled).  A drop is
   [drop_steps] / [wdrop_steps]: tombstone file renamed into place, then database file, journal and log removed
   (a removed database file = cut to zero pages). *)
From Coq Require Import NArith List.
Require Import LF.Model.PageDB LF.Model.Crash LF.Proofs.CrashProofs LF.Model.CrashWal LF.Proofs.CrashWalProofs LF.Proofs.ChecksumProofs LF.Proofs.ApplyHistoryProofs LF.Proofs.OpenProofs.
Import ListNotations.
Local Open Scope N_scope.

(* a local commit: every crash point recovers to the image before or the image after - never a mixture -
   and to the position of the newest transaction file; which one is decided by the rename alone *)
Theorem C05_commit_crash_atomic : forall (d0 : disk) (body : list cstep) (f : ltxrec) (n1 : N),
  Consistent d0 ->
  forallb body_step body = true ->
  journaled (k_db d0) body [] = true ->
  (forall p pre, In (KJournalRecord p pre) body -> pre = f_page (k_db d0) p) ->
  l_commit f = n1 ->
  same_image (truncate (write_pages (k_db d0) (l_pages f)) n1) (truncate (write_pages (k_db d0) (writes_of body)) n1) ->
  (forall p, f_size (k_db d0) < p <= n1 -> lastw p (l_pages f) <> None) ->
  forall k,
  let d := krun d0 (firstn k (tx_steps (f_size (k_db d0)) body f n1)) in
  (same_image (k_db (recover d)) (k_db d0) /\ disk_pos (recover d) = disk_pos d0) \/
  (same_image (k_db (recover d)) (truncate (write_pages (k_db d0) (writes_of body)) n1) /\ disk_pos (recover d) = (l_max f, l_post f)).
Proof. exact commit_crash_atomic. Qed.

(* a replica applying a streamed transaction file, or a snapshot *)
Theorem C05_apply_crash_atomic : forall (d0 : disk) (f : ltxrec) (k : nat),
  Consistent d0 ->
  let d := krun d0 (firstn k (apply_steps f)) in
  (same_image (k_db (recover d)) (k_db d0) /\ disk_pos (recover d) = disk_pos d0) \/
  (same_image (k_db (recover d)) (after_apply d0 f) /\ disk_pos (recover d) = (l_max f, l_post f)).
Proof. intros d0 f k HC. apply rename_first_crash_atomic; [exact HC|apply apply_steps_ok]. Qed.
Theorem C05_snapshot_crash_atomic : forall (d0 : disk) (f : ltxrec) (k : nat),
  Consistent d0 ->
  let d := krun d0 (firstn k (snapshot_steps f)) in
  (same_image (k_db (recover d)) (k_db d0) /\ disk_pos (recover d) = disk_pos d0) \/
  (same_image (k_db (recover d)) (after_apply d0 f) /\ disk_pos (recover d) = (l_max f, l_post f)).
Proof. intros d0 f k HC. apply rename_first_crash_atomic; [exact HC|]. constructor; [exact I|apply apply_steps_ok]. Qed.

(* a WAL-mode commit: frames of one transaction (uncommitted body, one commit frame), then the rename *)
Theorem C05_wal_commit_crash_atomic : forall (d0 : wdisk) (img0 : file) (x0 : wltx) (sa0 : N) (fr0 body : list wframe) (c : wframe) (f : ltxrec),
  WConsistent d0 img0 x0 sa0 fr0 ->
  uncommitted body -> w_commit c <> 0 -> l_commit f = w_commit c ->
  same_image (truncate (write_pages img0 (l_pages f)) (w_commit c))
             (truncate (write_pages img0 (frame_writes (body ++ [c]))) (w_commit c)) ->
  (forall p, f_size img0 < p <= w_commit c -> lastw p (frame_writes (body ++ [c])) <> None) ->
  forall k,
  let x := {| x_ltx := f; x_salt := sa0; x_end := length fr0 + length (body ++ [c]) |} in
  let d := wrun d0 (firstn k (wal_tx_steps (body ++ [c]) x)) in
  (same_image (wd_db (wrecover d)) img0 /\ wdisk_pos (wrecover d) = wdisk_pos d0) \/
  (same_image (wd_db (wrecover d)) (truncate (write_pages img0 (frame_writes (body ++ [c]))) (w_commit c)) /\
   wdisk_pos (wrecover d) = (l_max f, l_post f)).
Proof. exact wal_commit_crash_atomic. Qed.

(* a checkpoint that copies what connections see (and, before a restart, everything the log overrides):
   every crash point recovers to the same image and position *)
Theorem C05_checkpoint_crash_safe : forall (d0 : wdisk) (img0 : file) (x0 : wltx) (sa0 : N) (fr0 : list wframe)
    (pages : list (N * pg)) (restart : option N),
  WConsistent d0 img0 x0 sa0 fr0 -> fr0 <> [] ->
  (forall p q, In (p, q) pages -> f_page (checkpoint_db (wd_db d0) fr0) p = q) ->
  (forall p, 1 <= p <= f_size (checkpoint_db (wd_db d0) fr0) -> lastw p (frame_writes fr0) <> None -> lastw p pages <> None) ->
  forall k,
  let d := wrun d0 (firstn k (ckpt_steps pages (f_size (checkpoint_db (wd_db d0) fr0)) restart)) in
  same_image (wd_db (wrecover d)) img0 /\ wdisk_pos (wrecover d) = wdisk_pos d0.
Proof. exact checkpoint_crash_safe. Qed.

(* a drop: before the rename of the tombstone the database is still there, untouched; from the rename on, Open
   finishes the drop (no pages, no journal, no log) at the tombstone's position *)
Theorem C05_drop_crash_atomic : forall (d0 : disk) (f : ltxrec) (k : nat),
  Consistent d0 -> l_commit f = 0 ->
  let d := krun d0 (firstn k (drop_steps f)) in
  (same_image (k_db (recover d)) (k_db d0) /\ disk_pos (recover d) = disk_pos d0) \/
  (f_size (k_db (recover d)) = 0 /\ k_journal (recover d) = None /\ disk_pos (recover d) = (l_max f, l_post f)).
Proof. exact drop_crash_atomic. Qed.
Theorem C05_wal_drop_crash_atomic : forall (d0 : wdisk) (img0 : file) (x0 : wltx) (sa0 : N) (fr0 : list wframe) (x : wltx) (k : nat),
  WConsistent d0 img0 x0 sa0 fr0 -> l_commit (x_ltx x) = 0 ->
  let d := wrun d0 (firstn k (wdrop_steps x)) in
  (same_image (wd_db (wrecover d)) img0 /\ wdisk_pos (wrecover d) = wdisk_pos d0) \/
  (f_size (wd_db (wrecover d)) = 0 /\ wd_wal (wrecover d) = None /\ wdisk_pos (wrecover d) = (l_max (x_ltx x), l_post (x_ltx x))).
Proof. exact wal_drop_crash_atomic. Qed.

(* no hot journal is left, and recovering again changes nothing: the restarted node can go on *)
Theorem C05_recover_idempotent : forall d,
  k_journal (recover d) = None /\ same_image (k_db (recover (recover d))) (k_db (recover d)).
Proof. intros d. split; [apply k_journal_recover|apply recover_start, recover_is_consistent]. Qed.

(* Non-vacuity: a 3-page database at position 1; a transaction rewrites page 2, appends page 4; crash
   after the page writes but before the rename -> position 1, old pages; crash right after the rename
   (journal still hot) -> position 2, new pages *)
Example C05_nonvacuous :
  let p n := mkPg n 0 false in
  let f1 := mkLtx 1 1 0 77 3 [(1, p 11); (2, p 12); (3, p 13)] in
  let f2 := mkLtx 2 2 77 88 4 [(1, p 21); (2, p 22); (4, p 24)] in
  let d0 := mk_disk 3 [(1, p 11); (2, p 12); (3, p 13)] None [f1] in
  let body := [KJournalRecord 1 (p 11); KJournalRecord 2 (p 12); KWritePage 1 (p 21); KWritePage 2 (p 22); KWritePage 4 (p 24)] in
  (recovered_obs (krun d0 (firstn 6 (tx_steps 3 body f2 4))),
   recovered_obs (krun d0 (firstn 7 (tx_steps 3 body f2 4))))
  = ([1; 77; 3; 11; 12; 13], [2; 88; 4; 21; 22; 13; 24]).
Proof. vm_compute. reflexivity. Qed.

(* a drop interrupted after the rename but before the database file is removed: Open removes it *)
Example C05_drop_nonvacuous :
  let p n := mkPg n 0 false in
  let f1 := mkLtx 1 1 0 77 3 [(1, p 11); (2, p 12); (3, p 13)] in
  let t := mkLtx 2 2 77 0 0 [] in
  let d0 := mk_disk 3 [(1, p 11); (2, p 12); (3, p 13)] None [f1] in
  (recovered_obs (krun d0 (firstn 0 (drop_steps t))), recovered_obs (krun d0 (firstn 1 (drop_steps t))))
  = ([1; 77; 3; 11; 12; 13], [2; 0; 0]).
Proof. vm_compute. reflexivity. Qed.

(* The same conclusion on the page-level machine of C02-C04 (Model/PageDB.v), for ANY state the files may be in and whatever
   the lost in-memory caches held: if Open succeeds, the node is at the position of the newest transaction file [f], that
   position's checksum is the from-scratch checksum of the database file Open leaves, and the per-page cache is that
   file's ([RB]).  ([open_recomputed]: the state Open builds from the files before it re-applies [f]; asked of [f]: page
   numbers from 1, no page twice, and the pages it adds beyond the size the header names.) *)
Theorem C05_restart_position_is_newest_file : forall s f rest s',
  1 <= lockpg s -> rev (ltxdir s) = f :: rest -> wf_ltx f ->
  (forall x, pageN (open_recomputed s) < x <= l_commit f -> x <> lockpg s -> alookup x (l_pages f) <> None) ->
  op_open s = (Done, s') ->
  RB s' /\ lockpg s' = lockpg s /\ txid s' = l_max f /\ pageN s' = l_commit f /\ chk s' = l_post f /\
  chk s' = scratch (fun p => if p =? lockpg s' then 0 else file_h s' p) (pageN s').
Proof. exact open_checksum. Qed.
Print Assumptions C05_restart_position_is_newest_file.

(* over the histories of C04_history:
   After EVERY (well-formed) history in the step language of Props/C04.v - transactions in both journal modes with spills,
   rollbacks and failed finalisations, mode switches, checkpoints of every kind, earlier restarts, files from the stream
   and forwarded ones, drops, imports - a restart that completes (Open on the files as the process left them: frames in
   the log or not) is at exactly the position the node had: no acknowledged transaction is lost and none appears; the
   position's checksum is the from-scratch checksum of the database file Open leaves (the log checkpointed into it), the
   per-page cache is that file's, and the kept files still form one chain ending there - so the node commits and
   replicates on from it (C09, C01). *)
Require Import LF.Proofs.ComposeProofs LF.Proofs.RestartHistoryProofs.
Require Import LF.Proofs.HistoryCheck.
Theorem C05_history_restart_keeps_position : forall lock gs s v s',
  1 <= lock -> wf_gsteps (init lock) gs -> run_gsteps (init lock) (fun _ => 0) gs = Some (s, v) ->
  wf_restart s -> grun s GRestart = Some s' ->
  txid s' = txid s /\ chk s' = chk s /\
  chk s' = scratch (fun p => if p =? lock then 0 else file_h s' p) (pageN s') /\
  (forall p, 1 <= p <= pageN s' -> p <> lock -> dbc s' p = file_h s' p) /\
  Chain s'.
Proof. exact g_history_restart_position. Qed.
Print Assumptions C05_history_restart_keeps_position.

(* Non-vacuity: the first four steps of Props/C04.v's example (create with a failed finalisation, restart, switch to WAL
   mode, a WAL transaction that grows the database from 2 to 3 pages - its frames are only in the log), then the restart:
   position 3 before and after, the log checkpointed (file 2 -> 3 pages, log empty) *)
Example C05_history_restart_nonvacuous :
  wf_gsteps (init 2097153) restart_example_history /\
  match run_gsteps (init 2097153) (fun _ => 0) restart_example_history with
  | Some (s, _) =>
      wf_restart s /\
      match grun s GRestart with
      | Some s' => (wal_mode s, match wal_file s with [] => false | _ => true end, txid s, lenN (dbfile s),
                    txid s', chk s' =? chk s, wal_file s', lenN (dbfile s'), pageN s')
                   = (true, true, 3, 2, 3, true, [], 3, 3)
      | None => False
      end
  | None => False
  end.
Proof. apply (gsteps_by_check_with wf_restart_b wf_restart_b_sound). vm_compute. split; reflexivity. Qed.

(* ... and the database: position, size, the kept files and EVERY logical page ([lpage]: the log's last committed version
   of the page, else the file's) are what they were before the restart; the log has been checkpointed into the file.
   No follower is involved (the invariant: the newest file agrees with the logical database, along every history). *)
Require Import LF.Proofs.FollowProofs LF.Proofs.FollowWalProofs LF.Proofs.PrimaryRestartProofs.
Theorem C05_history_restart_keeps_database : forall lock gs s v s',
  1 <= lock -> wf_gsteps (init lock) gs -> run_gsteps (init lock) (fun _ => 0) gs = Some (s, v) ->
  wf_restart s -> grun s GRestart = Some s' ->
  txid s' = txid s /\ chk s' = chk s /\ pageN s' = pageN s /\ ltxdir s' = ltxdir s /\ wal_file s' = [] /\
  (forall p, 1 <= p <= pageN s -> lpage s' p = lpage s p).
Proof. exact g_history_restart_keeps_database. Qed.
Print Assumptions C05_history_restart_keeps_database.

(* Non-vacuity: the same history; before the restart pages 1 and 2 of the file are older versions and page 3 is only in
   the log, afterwards the file holds the three logical pages *)
Example C05_history_restart_database_nonvacuous :
  let pw h n := mkPg (fl h) n true in
  wf_gsteps (init 2097153) restart_example_history /\
  match run_gsteps (init 2097153) (fun _ => 0) restart_example_history with
  | Some (s, _) =>
      wf_restart s /\
      match grun s GRestart with
      | Some s' => (map (lpage s) [1; 2; 3], map (lpage s') [1; 2; 3], map (fpg s) [1; 2], lenN (dbfile s), map (fpg s') [1; 2; 3])
                   = ([pw 14 3; pw 23 0; pw 33 0], [pw 14 3; pw 23 0; pw 33 0], [pw 13 2; mkPg (fl 12) 0 false], 2, [pw 14 3; pw 23 0; pw 33 0])
      | None => False
      end
  | None => False
  end.
Proof. cbn zeta. apply (gsteps_by_check_with wf_restart_b wf_restart_b_sound). vm_compute. split; reflexivity. Qed.

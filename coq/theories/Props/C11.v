(* C11 -- LiteFS's internal writers and SQLite connections exclude each other.  ONLY statements.
   Model/Locks.v: the twelve locks of a database as twelve instances of the GENERATED RWMutex
   model (Gen/RWMutexGen.v), owners = guard ids, unboundedly many; DB.TryLocks / TryRLocks /
   Unlock / CanLock / CanRLock and TryAcquireWriteLock as functions on that table.
   [TInv t]: every lock satisfies the RWMutex invariant of C12 (holds in every reachable table,
   C11_reachable_inv).  A "conflicting read or write lock" of an application connection is, by
   SQLite's protocol, one of PENDING/RESERVED/SHARED (rollback mode) or WRITE/CKPT/RECOVER/READ0-4
   (WAL mode); beginning to read or write means acquiring SHARED resp. a READ lock. *)
From Coq Require Import NArith List.
Require Import LF.Gen.LockScriptsGen LF.Base.RWBase LF.Gen.ConstsGen LF.Model.Locks LF.Proofs.LocksProofs.
Import ListNotations.
Local Open Scope nat_scope.

(* a granted internal write lock: exclusive on every conflicting lock, all other owners unlocked there,
   other owners' guards untouched *)
Theorem C11_internal_write_excludes : forall t g wal t',
  TInv t -> (forall l, gst (t l) g = Unlocked) ->
  try_acquire_write t g wal = Some (true, t') ->
  TInv t' /\ (forall l h, h <> g -> gst (t' l) h = gst (t l) h) /\
  (wal = false -> excl_held t' g LReserved /\ excl_held t' g LPending /\ excl_held t' g LShared) /\
  (wal = true -> excl_held t' g LWrite /\ excl_held t' g LCkpt /\ excl_held t' g LRecover /\
                 excl_held t' g LRead0 /\ excl_held t' g LRead1 /\ excl_held t' g LRead2 /\ excl_held t' g LRead3 /\ excl_held t' g LRead4 /\
                 gst (t' LShared) g = Shared /\ gst (t' LDMS) g = Shared).
Proof. exact internal_write_excludes. Qed.

(* until it is released every attempt of another owner on such a lock is refused and changes nothing:
   no application can begin reading or writing *)
Theorem C11_held_blocks_others : forall t l g h,
  TInv t -> gst (t l) g = Exclusive -> h <> g ->
  (exists t', t_trylock t l h = Some (false, t') /\ forall l' k, gst (t' l') k = gst (t l') k) /\
  (exists t', t_tryrlock t l h = Some (false, t') /\ forall l' k, gst (t' l') k = gst (t l') k).
Proof. exact held_blocks_others. Qed.

(* a refused attempt releases everything it took and touches nobody else; the attempt never gets stuck *)
Theorem C11_all_or_nothing : forall t g wal t',
  TInv t -> try_acquire_write t g wal = Some (false, t') ->
  TInv t' /\ (forall l h, h <> g -> gst (t' l) h = gst (t l) h) /\ (forall l, gst (t' l) g = Unlocked).
Proof. exact internal_write_all_or_nothing. Qed.
Theorem C11_internal_write_total : forall t g wal, TInv t -> exists b t', try_acquire_write t g wal = Some (b, t').
Proof. exact internal_write_total. Qed.

(* a checkpoint lock is never granted to one connection while another holds the WAL write lock *)
Theorem C11_ckpt_gating : forall ls t g t', TInv t -> try_locks t g ls = Some (true, t') -> In LCkpt ls ->
  forall h, h <> g -> gst (t LWrite) h = Unlocked.
Proof. exact ckpt_gating. Qed.

(* WAL writes are refused unless some owner holds WRITE exclusively *)
Theorem C11_wal_write_allowed_iff : forall t, TInv t -> (wal_write_allowed t = true <-> exists g, gst (t LWrite) g = Exclusive).
Proof. exact wal_write_allowed_iff. Qed.

(* byte ranges map to exactly the lock bytes they contain; the HALT byte is never among them *)
Theorem C11_parse_db_range : forall a b l,
  In l (parse_db_range a b) <-> (In l [LPending; LReserved; LShared] /\ (a <= lock_byte l /\ lock_byte l <= b)%N).
Proof. exact parse_db_range_correct. Qed.
Theorem C11_parse_shm_range : forall a b l,
  In l (parse_shm_range a b) <-> (In l [LWrite; LCkpt; LRecover; LRead0; LRead1; LRead2; LRead3; LRead4; LDMS] /\ (a <= lock_byte l /\ lock_byte l <= b)%N).
Proof. exact parse_shm_range_correct. Qed.
Theorem C11_halt_never_parsed : forall l, lock_byte l <> c_LockTypeHalt.
Proof. exact halt_never_parsed. Qed.

(* the modelled script is the one generated from db.go *)
Theorem C11_write_script_is_generated : forall wal,
  write_script wal = acts_of (gen_write_common ++ (if wal then gen_write_wal else gen_write_rollback)).
Proof. exact write_script_is_generated. Qed.

(* flushing a database-file handle releases PENDING / RESERVED / SHARED of that owner and nothing else *)
Theorem C11_unlock_database_keeps_shm : forall t g t', TInv t -> unlock_all t g db_locks = Some t' ->
  (forall l, In l shm_locks -> gst (t' l) g = gst (t l) g) /\ (forall l h, h <> g -> gst (t' l) h = gst (t l) h).
Proof. exact unlock_database_keeps_shm. Qed.

(* the invariant holds in every table reachable through the API *)
Theorem C11_reachable_inv : forall t o c t', TInv t -> lstep t o = Some (c, t') -> TInv t'.
Proof. exact lstep_inv. Qed.
Theorem C11_init_inv : TInv tinit.
Proof. exact tinit_inv. Qed.

(* Non-vacuity: a reader blocks the internal writer (rollback mode); after it leaves the writer gets in and
   blocks a new reader; in WAL mode CKPT is refused to owner 2 while owner 1 holds WRITE *)
Example C11_nonvacuous :
  lrun tinit [OTryRLocks 1 [0]; OTryRLocks 1 [1]; OUnlockL 1 [0]; OAcquireWrite 100 false; OUnlockL 1 [1];
              OAcquireWrite 101 false; OTryRLocks 2 [0]; OReleaseAll 101; OTryLocks 1 [3]; OTryLocks 2 [4]; OTryLocks 1 [4]]
  = [1; 1; 2; 0; 2; 1; 0; 2; 1; 0; 1].
Proof. vm_compute. reflexivity. Qed.

(* Where the exclusion does NOT carry over (known finding, C11:halted-mode-switch): the guard set LiteFS takes for a
   WAL-mode database holds the database file's SHARED lock only shared (C11_internal_write_excludes, wal = true).  That
   keeps WAL-mode connections out - they need a READ lock - but not a rollback-journal connection, which needs PENDING
   and SHARED only.  A halt lock keeps its guard set for its whole life; if the holder switches the journal mode and the
   switch is forwarded, local connections of the new mode get in while forwarded transactions are applied.  Witness: *)
Example C11_wal_guard_admits_rollback_reader_refuted :
  match try_acquire_write tinit 100 true with
  | Some (true, t1) =>
    match t_tryrlock t1 LPending 8 with
    | Some (true, t2) => match t_tryrlock t2 LShared 8 with Some (b, _) => b | None => false end
    | _ => false
    end
  | _ => false
  end = true.
Proof. vm_compute. reflexivity. Qed.

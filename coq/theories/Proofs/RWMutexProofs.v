(* C12: the generated model of rwmutex.go refines the POSIX rules between owners.  Under the invariant [Inv] the mutex
   record is determined by the guards' states, so the tests the workers make on it ([availX], [availR]) decide the
   spec's conditions; each worker then returns its test and keeps [Inv]. *)
From Coq Require Import ZArith Bool List Lia.
Require Import LF.Base.RWBase LF.Gen.RWMutexGen LF.Model.RWMutex.
Import ListNotations.
Local Open Scope Z_scope.

(* [sharedN] counts the guards in state Shared; guard ids are unbounded, so the count is that of a duplicate-free
   list of exactly those guards *)
Definition Inv (w : world) : Prop :=
  (forall g, excl w = Some g <-> gst w g = Exclusive) /\
  (exists l, NoDup l /\ (forall g, In g l <-> gst w g = Shared) /\ sharedN w = Z.of_nat (length l)) /\
  (excl w <> None -> sharedN w = 0).

Lemma gstate_cases (s : gstate) : s <> Shared -> s <> Exclusive -> s = Unlocked.
Proof. destruct s; congruence. Qed.

Lemma ptr_eqb_none o : ptr_eqb o None = true <-> o = None.
Proof. destruct o; cbn; split; congruence. Qed.
Lemma ptr_eqb_some o g : ptr_eqb o (Some g) = true <-> o = Some g.
Proof.
  destruct o as [x|]; cbn; [|split; congruence].
  rewrite Nat.eqb_eq. split; congruence.
Qed.

Lemma upd_same s g v : upd s g v g = v.
Proof. unfold upd. rewrite Nat.eqb_refl. reflexivity. Qed.
Lemma upd_other s g v h : h <> g -> upd s g v h = s h.
Proof. unfold upd. intros H. apply Nat.eqb_neq in H. rewrite H. reflexivity. Qed.
Lemma upd_id s g v : s g = v -> heq s (upd s g v).
Proof. intros E h. unfold upd. destruct (Nat.eqb_spec h g); congruence. Qed.
Lemma set_gst_upd g v w h : gst (set_gst g v w) h = upd (gst w) g v h.
Proof. reflexivity. Qed.

(* The tests the workers make on the mutex record; under the invariant they decide the spec's two conditions. *)
Definition availX (w : world) (g : gid) : bool :=
  match gst w g with
  | Unlocked => (sharedN w =? 0) && ptr_eqb (excl w) None
  | Shared => sharedN w =? 1
  | Exclusive => true
  end.
Definition availR (w : world) (g : gid) : bool :=
  match gst w g with Unlocked => ptr_eqb (excl w) None | _ => true end.

Section InvFacts.
  Variable w : world.
  Hypothesis HI : Inv w.

  Lemma inv_excl_unique g h : gst w g = Exclusive -> gst w h = Exclusive -> g = h.
  Proof.
    destruct HI as [He _]. intros Hg Hh.
    apply He in Hg. apply He in Hh. congruence.
  Qed.

  Lemma inv_zero_noshared : sharedN w = 0 -> forall h, gst w h <> Shared.
  Proof.
    destruct HI as [_ [[l [Hnd [Hl Hn]]] _]]. intros H0 h Hs.
    apply Hl in Hs. destruct l; [destruct Hs|]. cbn in Hn. lia.
  Qed.

  Lemma inv_nonzero_shared : sharedN w <> 0 -> exists h, gst w h = Shared.
  Proof.
    destruct HI as [_ [[l [Hnd [Hl Hn]]] _]]. intros H0.
    destruct l as [|x xs]; [cbn in Hn; lia|]. exists x. apply Hl. left; reflexivity.
  Qed.

  Lemma inv_nonneg : 0 <= sharedN w.
  Proof. destruct HI as [_ [[l [_ [_ Hn]]] _]]. lia. Qed.

  Lemma inv_shared g : gst w g = Shared -> 1 <= sharedN w /\ excl w = None.
  Proof.
    intros Hs. assert (1 <= sharedN w) as H1.
    { destruct HI as [_ [[l [Hnd [Hl Hn]]] _]]. apply Hl in Hs.
      destruct l; [destruct Hs|]. cbn [length] in Hn. lia. }
    split; [assumption|]. destruct HI as [_ [_ Hx]].
    destruct (excl w) eqn:E; [|reflexivity].
    assert (sharedN w = 0) by (apply Hx; discriminate). lia.
  Qed.

  Lemma inv_shared_one g : gst w g = Shared -> sharedN w = 1 -> forall h, gst w h = Shared -> h = g.
  Proof.
    destruct HI as [_ [[l [Hnd [Hl Hn]]] _]]. intros Hg H1 h Hh.
    apply Hl in Hg. apply Hl in Hh.
    destruct l as [|x [|y ys]]; cbn [length] in Hn; try lia.
    destruct Hg as [Hg|[]]. destruct Hh as [Hh|[]]. congruence.
  Qed.

  Lemma inv_shared_many g : gst w g = Shared -> 1 < sharedN w -> exists h, h <> g /\ gst w h = Shared.
  Proof.
    destruct HI as [_ [[l [Hnd [Hl Hn]]] _]]. intros Hg H1.
    destruct l as [|x [|y ys]]; cbn [length] in Hn; try lia.
    inversion Hnd as [|? ? Hx Hnd']; subst.
    destruct (Nat.eq_dec x g) as [E|E].
    - exists y. split.
      + intros Ey. subst. apply Hx. left; reflexivity.
      + apply Hl. right; left; reflexivity.
    - exists x. split; [assumption|]. apply Hl. left; reflexivity.
  Qed.

  Lemma inv_excl_noshared g : gst w g = Exclusive -> forall h, gst w h <> Shared.
  Proof.
    intros Hg. apply inv_zero_noshared.
    destruct HI as [He [_ Hx]]. apply Hx. apply He in Hg. congruence.
  Qed.

  Lemma inv_excl_none_noexcl : excl w = None -> forall h, gst w h <> Exclusive.
  Proof. destruct HI as [He _]. intros Hn h Hh. apply He in Hh. congruence. Qed.

  Lemma inv_excl_alone g : gst w g = Exclusive -> others_unlocked (gst w) g.
  Proof.
    intros Hg h Hh. apply gstate_cases.
    - apply (inv_excl_noshared g Hg).
    - intros Hx. apply Hh. apply (inv_excl_unique h g Hx Hg).
  Qed.

  Lemma availX_iff g : availX w g = true <-> others_unlocked (gst w) g.
  Proof.
    unfold availX. destruct (gst w g) eqn:Hg.
    - rewrite andb_true_iff, Z.eqb_eq, ptr_eqb_none. split.
      + intros [H0 Hn] h _. apply gstate_cases; [apply (inv_zero_noshared H0)|apply (inv_excl_none_noexcl Hn)].
      + intros Hou. split.
        * destruct (Z.eq_dec (sharedN w) 0) as [E|E]; [assumption|].
          destruct (inv_nonzero_shared E) as [h Hh].
          rewrite (Hou h) in Hh by congruence. discriminate.
        * destruct (excl w) as [h|] eqn:Ex; [|reflexivity].
          apply HI in Ex. rewrite (Hou h) in Ex by congruence. discriminate.
    - destruct (inv_shared g Hg) as [Hpos Hex]. rewrite Z.eqb_eq. split.
      + intros H1 h Hh. apply gstate_cases.
        * intros Hs. apply Hh. apply (inv_shared_one g Hg H1 h Hs).
        * apply (inv_excl_none_noexcl Hex).
      + intros Hou. destruct (Z.eq_dec (sharedN w) 1) as [E|E]; [assumption|].
        destruct (inv_shared_many g Hg) as [h [Hne Hh]]; [lia|].
        rewrite (Hou h Hne) in Hh. discriminate.
    - split; [intros _; apply inv_excl_alone; exact Hg|reflexivity].
  Qed.

  Lemma availR_iff g : availR w g = true <-> others_not_excl (gst w) g.
  Proof.
    unfold availR. destruct (gst w g) eqn:Hg.
    - rewrite ptr_eqb_none. split.
      + intros Hn h _. apply (inv_excl_none_noexcl Hn).
      + intros Hou. destruct (excl w) as [h|] eqn:Ex; [|reflexivity].
        apply HI in Ex. exfalso. apply (Hou h); congruence.
    - split; [|reflexivity]. intros _ h _.
      destruct (inv_shared g Hg) as [_ Hex]. apply (inv_excl_none_noexcl Hex).
    - split; [|reflexivity]. intros _ h Hh. rewrite (inv_excl_alone g Hg h Hh). discriminate.
  Qed.
End InvFacts.

Lemma inv_init : Inv init_world.
Proof.
  unfold Inv, init_world; cbn. split; [|split].
  - intros g; split; intros H; discriminate.
  - exists []. split; [constructor|]. split; [|reflexivity].
    intros g; split; intros H; [destruct H | discriminate].
  - intros H; reflexivity.
Qed.

(* a guard that is alone may take any state; the mutex record that goes with it *)
Lemma inv_alone s g v : others_unlocked s g ->
  Inv (mkWorld (match v with Shared => 1 | _ => 0 end) (match v with Exclusive => Some g | _ => None end) (upd s g v)).
Proof.
  intros Ho. split; [|split]; cbn.
  - intros h. unfold upd. destruct (Nat.eqb_spec h g) as [->|N].
    + destruct v; split; congruence.
    + rewrite (Ho h N). destruct v; split; congruence.
  - exists (match v with Shared => [g] | _ => [] end).
    split; [destruct v; repeat constructor; cbn; tauto|]. split; [|destruct v; reflexivity].
    intros h. unfold upd. destruct (Nat.eqb_spec h g) as [->|N].
    + destruct v; cbn; split; try tauto; discriminate.
    + rewrite (Ho h N). destruct v; cbn; split; try tauto; try discriminate. intros [E|[]]; congruence.
  - destruct v; congruence.
Qed.

Lemma inv_add_shared w g : Inv w -> gst w g = Unlocked -> excl w = None ->
  Inv (mkWorld (sharedN w + 1) (excl w) (upd (gst w) g Shared)).
Proof.
  intros [He [[l [Hnd [Hl Hn]]] Hx]] Hg Hc. split; [|split]; cbn.
  - intros h. rewrite He. unfold upd. destruct (Nat.eqb_spec h g) as [->|N]; [|tauto].
    rewrite Hg. split; discriminate.
  - exists (g :: l). split; [|split].
    + constructor; [|assumption]. rewrite Hl, Hg. discriminate.
    + intros h. cbn [In]. rewrite Hl. unfold upd. destruct (Nat.eqb_spec h g) as [->|N]; [tauto|].
      split; [intros [E|H]; [congruence|assumption]|tauto].
    + cbn [length]. lia.
  - congruence.
Qed.

Lemma in_remove_iff (g h : nat) l : In h (remove Nat.eq_dec g l) <-> In h l /\ h <> g.
Proof. split; [apply in_remove|intros [H N]; apply in_in_remove; assumption]. Qed.
Lemma nodup_remove (g : nat) l : NoDup l -> NoDup (remove Nat.eq_dec g l).
Proof.
  induction 1 as [|x xs Hx Hnd IH]; cbn; [constructor|].
  destruct (Nat.eq_dec g x); [assumption|].
  constructor; [|assumption]. rewrite in_remove_iff. tauto.
Qed.
Lemma length_remove_nodup (g : nat) l :
  NoDup l -> In g l -> S (length (remove Nat.eq_dec g l)) = length l.
Proof.
  induction 1 as [|x xs Hx Hnd IH]; cbn; [tauto|].
  intros [E|Hin].
  - subst x. destruct (Nat.eq_dec g g) as [_|N]; [|congruence].
    rewrite notin_remove; [reflexivity|assumption].
  - destruct (Nat.eq_dec g x) as [E|E]; [subst; tauto|].
    cbn. rewrite IH; [reflexivity|assumption].
Qed.

Lemma inv_remove_shared w g : Inv w -> gst w g = Shared ->
  Inv (mkWorld (sharedN w - 1) (excl w) (upd (gst w) g Unlocked)).
Proof.
  intros HI Hg. destruct (inv_shared w HI g Hg) as [_ Hex].
  destruct HI as [He [[l [Hnd [Hl Hn]]] Hx]]. split; [|split]; cbn.
  - intros h. rewrite He. unfold upd. destruct (Nat.eqb_spec h g) as [->|N]; [|tauto].
    rewrite Hg. split; discriminate.
  - exists (remove Nat.eq_dec g l). split; [apply nodup_remove; assumption|]. split.
    + intros h. rewrite in_remove_iff, Hl. unfold upd. destruct (Nat.eqb_spec h g) as [->|N]; [|tauto].
      split; [tauto|discriminate].
    + pose proof (length_remove_nodup g l Hnd (proj2 (Hl g) Hg)). lia.
  - congruence.
Qed.

Lemma tryLock_ok w g : Inv w ->
  exists w', tryLock g w = Ret (availX w g) w' /\ Inv w' /\
    if availX w g then heq (gst w') (upd (gst w) g Exclusive) else w' = w.
Proof.
  intros HI. pose proof (availX_iff w HI g) as Hav. unfold tryLock, availX in *. destruct (gst w g) eqn:Hg.
  - rewrite <- negb_andb. destruct (_ && _); cbn [negb].
    + eexists. split; [reflexivity|]. split; [|intros h; reflexivity].
      apply (inv_alone (gst w) g Exclusive), Hav. reflexivity.
    + exists w. auto.
  - destruct (inv_shared w HI g Hg) as [Hpos Hex]. rewrite Hex. cbn [ptr_eqb].
    destruct (Z.eqb_spec (sharedN w) 1) as [E|E].
    + rewrite E. cbn. eexists. split; [reflexivity|]. split; [|intros h; reflexivity].
      apply (inv_alone (gst w) g Exclusive), Hav. reflexivity.
    + replace (sharedN w >? 1) with true by (symmetry; apply Z.gtb_lt; lia). exists w. auto.
  - exists w. split; [reflexivity|]. split; [assumption|]. apply upd_id, Hg.
Qed.

Lemma tryRLock_ok w g : Inv w ->
  exists w', tryRLock g w = Ret (availR w g) w' /\ Inv w' /\
    if availR w g then heq (gst w') (upd (gst w) g Shared) else w' = w.
Proof.
  intros HI. unfold tryRLock, availR. destruct (gst w g) eqn:Hg.
  - destruct (ptr_eqb (excl w) None) eqn:Hc; cbn [negb].
    + eexists. split; [reflexivity|]. split; [|intros h; reflexivity].
      apply (inv_add_shared w g HI Hg), ptr_eqb_none, Hc.
    + exists w. auto.
  - exists w. split; [reflexivity|]. split; [assumption|]. apply upd_id, Hg.
  - replace (ptr_eqb (excl w) (Some g)) with true by (symmetry; apply ptr_eqb_some, HI, Hg).
    eexists. split; [reflexivity|]. split; [|intros h; reflexivity].
    apply (inv_alone (gst w) g Shared), inv_excl_alone; assumption.
Qed.

Lemma unlock_ok w g : Inv w ->
  exists w', unlock g w = Ret tt w' /\ Inv w' /\ heq (gst w') (upd (gst w) g Unlocked).
Proof.
  intros HI. unfold unlock. destruct (gst w g) eqn:Hg.
  - exists w. split; [reflexivity|]. split; [assumption|]. apply upd_id, Hg.
  - destruct (inv_shared w HI g Hg) as [Hpos _].
    replace (sharedN w >? 0) with true by (symmetry; apply Z.gtb_lt; lia).
    eexists. split; [reflexivity|]. split; [|intros h; reflexivity]. exact (inv_remove_shared w g HI Hg).
  - replace (ptr_eqb (excl w) (Some g)) with true by (symmetry; apply ptr_eqb_some, HI, Hg).
    eexists. split; [reflexivity|]. split; [|intros h; reflexivity].
    apply (inv_alone (gst w) g Unlocked), inv_excl_alone; assumption.
Qed.

Lemma state_spec w : Inv w -> spec_mstate (gst w) (state w).
Proof.
  intros HI. unfold state. destruct (negb (ptr_eqb (excl w) None)) eqn:Hc.
  - apply negb_true_iff in Hc. destruct (excl w) as [h|] eqn:Ex; [|discriminate].
    cbn. exists h. apply HI. assumption.
  - apply negb_false_iff, ptr_eqb_none in Hc.
    destruct (Z.gtb (sharedN w) 0) eqn:Hgt.
    + cbn. split.
      * apply (inv_nonzero_shared w HI). apply Z.gtb_lt in Hgt. lia.
      * apply (inv_excl_none_noexcl w HI Hc).
    + cbn. intros h. apply gstate_cases.
      * apply (inv_zero_noshared w HI). pose proof (inv_nonneg w HI).
        rewrite Z.gtb_ltb in Hgt. apply Z.ltb_ge in Hgt. lia.
      * apply (inv_excl_none_noexcl w HI Hc).
Qed.

Lemma canLock_eq g w : canLock g w = Ret (availX w g, state w) w.
Proof. unfold canLock, availX. destruct (gst w g); reflexivity. Qed.
Lemma canRLock_eq g w : canRLock g w = Ret (availR w g) w.
Proof. unfold canRLock, availR. destruct (gst w g); reflexivity. Qed.

Lemma step_ok w g o : Inv w ->
  exists r w', step w g o = Some (r, w') /\ spec_step (gst w) g o r (gst w') /\ Inv w'.
Proof.
  intros HI. pose proof (availX_iff w HI g) as HX. pose proof (availR_iff w HI g) as HR.
  destruct o; cbn [step spec_step].
  - destruct (tryLock_ok w g HI) as [w' [-> [I S]]]. eexists _, w'. split; [reflexivity|]. split; [|exact I].
    destruct (availX w g); [left|right; subst w'].
    + split; [reflexivity|]. split; [apply HX; reflexivity|exact S].
    + split; [reflexivity|]. split; [rewrite <- HX; discriminate|intros h; reflexivity].
  - destruct (tryRLock_ok w g HI) as [w' [-> [I S]]]. eexists _, w'. split; [reflexivity|]. split; [|exact I].
    destruct (availR w g); [left|right; subst w'].
    + split; [reflexivity|]. split; [apply HR; reflexivity|exact S].
    + split; [reflexivity|]. split; [rewrite <- HR; discriminate|intros h; reflexivity].
  - destruct (unlock_ok w g HI) as [w' [-> [I S]]]. eexists _, w'. split; [reflexivity|]. split; [split; [reflexivity|exact S]|exact I].
  - rewrite canLock_eq. eexists _, w. split; [reflexivity|]. split; [|exact HI].
    eexists _, _. split; [reflexivity|]. split; [exact HX|]. split; [apply state_spec, HI|intros h; reflexivity].
  - rewrite canRLock_eq. eexists _, w. split; [reflexivity|]. split; [|exact HI].
    eexists. split; [reflexivity|]. split; [exact HR|intros h; reflexivity].
  - eexists _, _. split; [reflexivity|]. split; [|assumption]. split; [reflexivity|intros h; reflexivity].
  - eexists _, _. split; [reflexivity|]. split; [|assumption].
    exists (state w). split; [reflexivity|]. split; [apply state_spec; assumption|intros h; reflexivity].
Qed.

Lemma spec_mstate_heq s t m : heq s t -> (spec_mstate s m <-> spec_mstate t m).
Proof. intros H. unfold heq in H. destruct m; cbn; setoid_rewrite H; reflexivity. Qed.
Lemma spec_step_heq s t g o r s' : heq s t -> spec_step s g o r s' -> spec_step t g o r s'.
Proof.
  intros H. destruct o; cbn; try setoid_rewrite (spec_mstate_heq s t _ H);
    unfold others_unlocked, others_not_excl, heq, upd in *; setoid_rewrite H; trivial.
Qed.

Lemma run_refines ops : forall w, Inv w ->
  exists rs w', run w ops = Some (rs, w') /\ spec_trace (gst w) ops rs (gst w') /\ Inv w'.
Proof.
  induction ops as [|[g o] ops IH]; intros w HI.
  - exists [], w. split; [reflexivity|]. split; [constructor; intros h; reflexivity|assumption].
  - destruct (step_ok w g o HI) as [r [w1 [E1 [S1 I1]]]].
    destruct (IH w1 I1) as [rs [w2 [E2 [S2 I2]]]].
    exists (r :: rs), w2. cbn [run]. rewrite E1, E2. split; [reflexivity|].
    split; [|assumption]. econstructor; eassumption.
Qed.

Lemma inv_trichotomy w : Inv w ->
  (forall h, gst w h = Unlocked) \/
  ((exists h, gst w h = Shared) /\ (forall h, gst w h <> Exclusive)) \/
  (exists g, gst w g = Exclusive /\ forall h, h <> g -> gst w h = Unlocked).
Proof.
  intros HI. pose proof (state_spec w HI) as Hs. destruct (state w); cbn in Hs.
  - left; assumption.
  - right; left; assumption.
  - right; right. destruct Hs as [g Hg]. exists g. split; [assumption|]. apply inv_excl_alone; assumption.
Qed.

Definition try_succeeds (try : gid -> world -> outcome bool) (g : gid) (w : world) : Prop :=
  exists w', try g w = Ret true w'.

Lemma lock_loop_first try g : forall evs n,
  (forall w, In (Tick w) evs -> exists b w', try g w = Ret b w') ->
  match lock_loop try g evs n with
  | Acquired w' k => exists pre w post, evs = pre ++ Tick w :: post /\ k = (n + S (length pre))%nat /\
        try g w = Ret true w' /\
        (forall e, In e pre -> exists v, e = Tick v /\ ~ try_succeeds try g v)
  | CtxErr k => exists pre post, evs = pre ++ Done :: post /\ k = (n + length pre)%nat /\
        (forall e, In e pre -> exists v, e = Tick v /\ ~ try_succeeds try g v)
  | Blocked => forall e, In e evs -> exists v, e = Tick v /\ ~ try_succeeds try g v
  | LPanic => False
  end.
Proof.
  induction evs as [|e evs IH]; intros n Htot; cbn [lock_loop].
  - intros e [].
  - destruct e as [w|].
    + destruct (Htot w (or_introl eq_refl)) as [b [w' E]]. rewrite E. destruct b.
      * exists [], w, evs. split; [reflexivity|]. split; [cbn; lia|]. split; [assumption|]. intros e [].
      * assert (Hns : ~ try_succeeds try g w) by (intros [w'' E']; congruence).
        specialize (IH (S n) (fun v Hv => Htot v (or_intror Hv))).
        destruct (lock_loop try g evs (S n)) as [w2 k|k| |].
        -- destruct IH as [pre [v [post [He [Hk [Ht Hp]]]]]].
           exists (Tick w :: pre), v, post. split; [cbn; congruence|]. split; [cbn; lia|].
           split; [assumption|]. intros e [He'|He']; [subst; eauto|auto].
        -- destruct IH as [pre [post [He [Hk Hp]]]].
           exists (Tick w :: pre), post. split; [cbn; congruence|]. split; [cbn; lia|].
           intros e [He'|He']; [subst; eauto|auto].
        -- intros e [He'|He']; [subst; eauto|auto].
        -- assumption.
    + exists [], evs. split; [reflexivity|]. split; [cbn; lia|]. intros e [].
Qed.

Lemma lock_ctx_first try g w0 evs :
  Inv w0 -> (forall w, In (Tick w) evs -> Inv w) ->
  (forall w, Inv w -> exists b w', try g w = Ret b w') ->
  match lock_ctx try g w0 evs with
  | Acquired w' 0 => try g w0 = Ret true w'
  | Acquired w' (S k) => ~ try_succeeds try g w0 /\
        exists pre w post, evs = pre ++ Tick w :: post /\ k = length pre /\ try g w = Ret true w' /\
        (forall e, In e pre -> exists v, e = Tick v /\ ~ try_succeeds try g v)
  | CtxErr k => ~ try_succeeds try g w0 /\
        exists pre post, evs = pre ++ Done :: post /\ k = length pre /\
        (forall e, In e pre -> exists v, e = Tick v /\ ~ try_succeeds try g v)
  | Blocked => ~ try_succeeds try g w0 /\ forall e, In e evs -> exists v, e = Tick v /\ ~ try_succeeds try g v
  | LPanic => False
  end.
Proof.
  intros H0 Hevs Htot. unfold lock_ctx. destruct (Htot w0 H0) as [b [w' E]]. rewrite E.
  destruct b; [reflexivity|].
  assert (Hns : ~ try_succeeds try g w0) by (intros [w'' E']; congruence).
  pose proof (lock_loop_first try g evs 0 (fun w Hw => Htot w (Hevs w Hw))) as HL.
  destruct (lock_loop try g evs 0) as [w2 k|k| |].
  - destruct HL as [pre [v [post [He [Hk [Ht Hp]]]]]]. cbn in Hk. subst k.
    split; [assumption|]. exists pre, v, post. auto.
  - destruct HL as [pre [post [He [Hk Hp]]]]. cbn in Hk. split; [assumption|]. exists pre, post. auto.
  - split; assumption.
  - assumption.
Qed.

Lemma tryLock_total w g : Inv w -> exists b w', tryLock g w = Ret b w'.
Proof. intros HI. destruct (tryLock_ok w g HI) as [w' [E _]]. eauto. Qed.
Lemma tryRLock_total w g : Inv w -> exists b w', tryRLock g w = Ret b w'.
Proof. intros HI. destruct (tryRLock_ok w g HI) as [w' [E _]]. eauto. Qed.

Lemma tryLock_succeeds_iff w g : Inv w -> (try_succeeds tryLock g w <-> others_unlocked (gst w) g).
Proof.
  intros HI. rewrite <- (availX_iff w HI). destruct (tryLock_ok w g HI) as [w' [E _]]. unfold try_succeeds. rewrite E.
  split; [intros [w'' [= ->]]; reflexivity|intros ->; eauto].
Qed.
Lemma tryRLock_succeeds_iff w g : Inv w -> (try_succeeds tryRLock g w <-> others_not_excl (gst w) g).
Proof.
  intros HI. rewrite <- (availR_iff w HI). destruct (tryRLock_ok w g HI) as [w' [E _]]. unfold try_succeeds. rewrite E.
  split; [intros [w'' [= ->]]; reflexivity|intros ->; eauto].
Qed.

Definition reachable (w : world) : Prop := exists ops rs, run init_world ops = Some (rs, w).

Lemma reachable_inv w : reachable w -> Inv w.
Proof.
  intros [ops [rs E]]. destruct (run_refines ops init_world inv_init) as [rs' [w' [E' [_ I]]]].
  rewrite E in E'. inversion E'; subst. assumption.
Qed.

Lemma histories_refine ops :
  exists rs w, run init_world ops = Some (rs, w) /\
               spec_trace (fun _ => Unlocked) ops rs (gst w).
Proof.
  destruct (run_refines ops init_world inv_init) as [rs [w [E [S _]]]]. eauto.
Qed.

Lemma failed_try_same_world w g o w' : Inv w -> step w g o = Some (RBool false, w') -> w' = w.
Proof.
  intros HI. destruct o; cbn [step].
  - destruct (tryLock_ok w g HI) as [w1 [-> [_ S]]]. intros [= E <-]. rewrite E in S. exact S.
  - destruct (tryRLock_ok w g HI) as [w1 [-> [_ S]]]. intros [= E <-]. rewrite E in S. exact S.
  - destruct (unlock g w); discriminate.
  - rewrite canLock_eq. discriminate.
  - rewrite canRLock_eq. intros [= _ <-]. reflexivity.
  - discriminate.
  - discriminate.
Qed.
Lemma failed_try_changes_nothing w g o w' :
  reachable w -> (o = OTryLock \/ o = OTryRLock) -> step w g o = Some (RBool false, w') ->
  forall h, gst w' h = gst w h.
Proof. intros HR _ E h. rewrite (failed_try_same_world w g o w' (reachable_inv w HR) E). reflexivity. Qed.

Lemma unlock_unheld_noop w g :
  reachable w -> gst w g = Unlocked -> step w g OUnlock = Some (RUnit, w).
Proof. intros _ Hg. cbn [step]. unfold unlock. rewrite Hg. reflexivity. Qed.


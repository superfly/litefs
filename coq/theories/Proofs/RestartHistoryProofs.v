(* C05 over histories: after every history of C04_history's steps a restart (Open on the files as they are - the process
   died on a quiescent node, or was stopped) that completes is at the position the node had: the chain ends at the node's
   position (ChainHistoryProofs) and Open ends at the newest file's (OpenProofs). *)
From Coq Require Import NArith List Lia.
Require Import LF.Model.PageDB LF.Proofs.ChecksumProofs LF.Proofs.HistoryProofs LF.Proofs.SqlCheckpointProofs
  LF.Proofs.ApplyHistoryProofs LF.Proofs.OpenProofs LF.Proofs.ComposeProofs LF.Proofs.ChainHistoryProofs.
Import ListNotations.
Local Open Scope N_scope.

Theorem g_history_restart_position lock gs s v s' :
  1 <= lock -> wf_gsteps (init lock) gs -> run_gsteps (init lock) (fun _ => 0) gs = Some (s, v) ->
  wf_restart s -> grun s GRestart = Some s' ->
  txid s' = txid s /\ chk s' = chk s /\
  chk s' = scratch (fun p => if p =? lock then 0 else file_h s' p) (pageN s') /\
  (forall p, 1 <= p <= pageN s' -> p <> lock -> dbc s' p = file_h s' p) /\
  Chain s'.
Proof.
  intros Hl Hwf Hrun Hwr Hg.
  destruct (g_history_invariant gs _ _ s v (ginv_init lock Hl) Hwf Hrun) as [HI El]. change (lockpg (init lock)) with lock in El.
  pose proof (g_history_chain lock gs s v Hrun) as HC.
  pose proof (g_chain_step s GRestart s' HC Hg) as HC'.
  pose proof (grun_inv s GRestart s' Hg) as E. cbn beta iota in E.
  destruct Hwr as [f [rest [Hr [[Hwfl Hmax] [Hgrow Hex]]]]].
  assert (1 <= lockpg s) as Hlk by (rewrite El; exact Hl).
  destruct (open_checksum s f rest s' Hlk Hr Hwfl Hgrow E) as [HR [El' [Et [Ep [Ec Hs]]]]].
  destruct HC as [_ He]. unfold ends_at in He. rewrite Hr in He. destruct He as [A B].
  rewrite El', El in Hs.
  split; [congruence|]. split; [congruence|]. split; [exact Hs|]. split; [|exact HC'].
  intros p Hp Hnl. apply (r_truth s' HR); [lia|rewrite El', El; exact Hnl].
Qed.

(* the first four steps of Props/C04.v's example history (create with a failed finalisation, restart, switch to WAL mode, a
   WAL transaction that grows the database - its frames are in the log), then the restart that is its fifth step *)
Definition restart_example_history : list gstep :=
  let pg h n := mkPg (fl h) n false in
  let pw h n := mkPg (fl h) n true in
  [GJ (HTx [] [AWrite 1 (pg 11 2); AWrite 2 (pg 19 0); AFail 2; AWrite 2 (pg 12 0)] 2);
   GRestart;
   GSwitch [] [AWrite 1 (pw 13 2)] 2;
   GW (W2Commit [(1, pw 14 3); (3, pw 33 0); (2, pw 23 0)] 3)].

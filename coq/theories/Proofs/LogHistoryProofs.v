(* C02 along histories: every committing rollback-journal transaction is captured exactly once, in order - the log after
   any history is one file per transaction, numbered 1, 2, ..., each chained to the one before. *)
From Coq Require Import NArith List Lia.
Require Import LF.Model.PageDB LF.Proofs.XorLib LF.Proofs.ChecksumProofs LF.Proofs.CaptureProofs
  LF.Proofs.ChainProofs LF.Proofs.HistoryProofs.
Import ListNotations.
Local Open Scope N_scope.

Lemma seqN_snoc a n : seqN a (S n) = seqN a n ++ [a + N.of_nat n].
Proof. replace (S n) with (n + 1)%nat by lia. rewrite seqN_app. reflexivity. Qed.

(* one file per transaction so far, numbered from 1 *)
Definition LogIds (s : st) : Prop :=
  map (fun f => (l_min f, l_max f)) (ltxdir s) = map (fun t => (t, t)) (seqN 1 (N.to_nat (txid s))).

(* what one step of a history does to the log: nothing, or exactly one file for exactly the next transaction *)
Definition log_step (s s' : st) : Prop :=
  (ltxdir s' = ltxdir s /\ txid s' = txid s) \/
  (exists f, ltxdir s' = ltxdir s ++ [f] /\ l_min f = txid s + 1 /\ l_max f = txid s + 1 /\ txid s' = txid s + 1).

Lemma logids_step s s' : LogIds s -> log_step s s' -> LogIds s'.
Proof.
  unfold LogIds. intros Hl [[A B]|[f [A [B [C D]]]]].
  - rewrite A, B. exact Hl.
  - rewrite A, D, map_app, Hl. replace (N.to_nat (txid s + 1)) with (S (N.to_nat (txid s))) by lia.
    rewrite seqN_snoc, map_app. cbn [map]. rewrite B, C, N2Nat.id. replace (1 + txid s) with (txid s + 1) by lia. reflexivity.
Qed.

Lemma wr_ops_keep_pos l : Forall keeps_pos (wr_ops l).
Proof. apply Forall_forall. intros o Hin. apply in_map_iff in Hin. destruct Hin as [kv [<- _]]. exact I. Qed.

Lemma body_keeps_pos zf n acts : Forall keeps_pos (zf_ops zf ++ act_ops n acts).
Proof.
  apply Forall_app. split; apply Forall_forall; intros o Hin; apply in_map_iff in Hin; destruct Hin as [x [<- _]];
    [exact I|destruct x; exact I].
Qed.

Lemma hops_log s h s' : run_group s (hops s h) = (0, s') ->
  (dirty s = [] -> dirty s' = []) /\
  ((ltxdir s' = ltxdir s /\ txid s' = txid s /\ chk s' = chk s) \/
   (exists f, ltxdir s' = ltxdir s ++ [f] /\ l_min f = txid s + 1 /\ l_max f = txid s + 1 /\ l_pre f = chk s /\
              l_post f = chk s' /\ txid s' = txid s + 1)).
Proof.
  destruct h as [zf acts c|n]; cbn [hops]; intros H.
  - rewrite app_assoc, run_group_app in H.
    destruct (run_group s (zf_ops zf ++ act_ops (pageN s) acts)) as [code s2] eqn:E2. destruct code; [|inversion H].
    destruct (run_group_keeps_pos _ s s2 (body_keeps_pos zf _ acts) E2) as [Ft [Fc Fd]]. rewrite <- Ft, <- Fc, <- Fd.
    apply run_group_one in H. destruct (step_commit_cases s2 c s' H) as [[_ [_ ->]]|Hc]; [cbn; auto|].
    destruct (commit_journal_file s2 c s' Hc) as [f [E1 [E2' [E3 [E4 [E5 _]]]]]].
    destruct (commit_journal_pos s2 c s' Hc) as [Et [_ Ed]]. split; [auto|]. right. exists f. auto 7.
  - apply run_group_one in H. destruct (keeps_pos_step s _ Done s' H I) as [A [B C]]. split; [|auto].
    cbn [step] in H. unfold op_truncate in H. destruct (negb (n =? pageN s)); [discriminate|].
    inversion H. rewrite (fr_dirty _ _ (frame_truncate_db s n)). exact (fun Hd => Hd).
Qed.

Lemma hstep_log s h s' : J s -> dirty s = [] -> wf_step s h -> run_group s (hops s h) = (0, s') ->
  dirty s' = [] /\
  ((ltxdir s' = ltxdir s /\ txid s' = txid s /\ chk s' = chk s) \/
   (exists f, ltxdir s' = ltxdir s ++ [f] /\ l_min f = txid s + 1 /\ l_max f = txid s + 1 /\ l_pre f = chk s /\
              l_post f = chk s' /\ txid s' = txid s + 1)).
Proof. intros _ Hd _ H. destruct (hops_log s h s' H) as [A B]. auto. Qed.

Lemma hops_log_step s h s' : run_group s (hops s h) = (0, s') -> log_step s s'.
Proof. intros H. destruct (hops_log s h s' H) as [_ [[A [B _]]|[f [A [B [C [_ [_ D]]]]]]]]; [left; auto|right; exists f; auto]. Qed.

Theorem log_history_invariant : forall hs s s', LogIds s -> run_hsteps s hs = Some s' -> LogIds s'.
Proof.
  induction hs as [|h r IH]; intros s s' Hl H; cbn [run_hsteps] in H.
  - inversion H; subst. exact Hl.
  - destruct (run_group s (hops s h)) as [code s1] eqn:E. destruct code; [|discriminate].
    exact (IH s1 s' (logids_step s s1 Hl (hops_log_step s h s1 E)) H).
Qed.

(* C02 for every rollback-journal history from an empty node: the log holds exactly one file per committed transaction, the
   k-th numbered k (that it is also chained - each file's pre-checksum the post-checksum of the one before - is C09's chain
   invariant, proved for every operation) *)
Theorem log_history_once_in_order lock hs s' :
  1 <= lock -> wf_hist (init lock) hs -> run_hsteps (init lock) hs = Some s' ->
  map (fun f => (l_min f, l_max f)) (ltxdir s') = map (fun t => (t, t)) (seqN 1 (N.to_nat (txid s'))) /\
  length (ltxdir s') = N.to_nat (txid s').
Proof.
  intros _ _ H. pose proof (log_history_invariant hs (init lock) s' eq_refl H) as A.
  split; [exact A|]. apply (f_equal (@length _)) in A. rewrite !map_length, seqN_length in A. exact A.
Qed.

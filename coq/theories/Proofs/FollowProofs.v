(* C01 without the no-collision premise, rollback-journal mode.  A step of a node is described by what it publishes and which
   pages it changes (Pub); a follower at the node's position that holds its pages and is sent what the step publishes holds the new
   pages at the new position (pub_follow).  The finalisation of a journal after any transaction body is such a step (commit_pub). *)
From Coq Require Import NArith List Lia Bool Arith Sorted.
Require Import LF.Model.PageDB LF.Proofs.ChecksumProofs LF.Proofs.CaptureProofs LF.Proofs.ChainProofs
  LF.Proofs.HistoryProofs LF.Proofs.ApplyHistoryProofs LF.Proofs.ComposeProofs.
Import ListNotations.
Local Open Scope N_scope.

Definition pg_at (l : list pg) (j : nat) : pg := match nth_error l j with Some q => q | None => zero_pg end.
Definition fpg (s : st) (x : N) : pg := pg_at (dbfile s) (N.to_nat (x - 1)).

Lemma set_file_pg_at : forall i l j v, pg_at (set_file l i v) j = if Nat.eqb j i then v else pg_at l j.
Proof. exact (set_file_at (fun q => q)). Qed.
Lemma firstn_pg_at : forall n l j, pg_at (firstn n l) j = if (j <? n)%nat then pg_at l j else zero_pg.
Proof. exact (firstn_at (fun q => q) zero_pg). Qed.
Lemma fpg_ext s s' x : dbfile s = dbfile s' -> fpg s x = fpg s' x.
Proof. unfold fpg. intros ->. reflexivity. Qed.
Lemma fpg_file_pg s x q : file_pg s x = Some q -> fpg s x = q.
Proof. unfold fpg, pg_at, file_pg. intros ->. reflexivity. Qed.

Lemma fpg_write s p q x : 1 <= p -> 1 <= x -> fpg (write_db_page s p q) x = if x =? p then q else fpg s x.
Proof.
  intros Hp Hx. unfold fpg, write_db_page. cbn [dbfile set_page_chk with_file]. rewrite set_file_pg_at.
  destruct (N.eqb_spec x p) as [->|Hne]; [rewrite Nat.eqb_refl; reflexivity|].
  destruct (Nat.eqb_spec (N.to_nat (x - 1)) (N.to_nat (p - 1))); [lia|reflexivity].
Qed.
Lemma fpg_fold_write : forall pages s x,
  (forall p q, In (p, q) pages -> 1 <= p) -> KeysNoDup pages -> 1 <= x ->
  fpg (fold_left (fun a kv => write_db_page a (fst kv) (snd kv)) pages s) x =
  match alookup x pages with Some q => q | None => fpg s x end.
Proof.
  induction pages as [|[p q] r IH]; intros s x Hpos Hnd Hx; cbn [fold_left fst snd alookup]; [reflexivity|].
  unfold KeysNoDup in Hnd. cbn [map fst] in Hnd. inversion Hnd as [|? ? Hn Hd]; subst.
  assert (1 <= p) as Hp by (apply (Hpos p q); left; reflexivity).
  rewrite IH; [|intros p' q' Hin; apply (Hpos p' q'); right; assumption|exact Hd|exact Hx].
  destruct (N.eqb_spec x p) as [->|Hne].
  - rewrite (proj2 (alookup_none_iff p r) Hn).
    rewrite fpg_write by assumption. rewrite N.eqb_refl. reflexivity.
  - destruct (alookup x r); [reflexivity|]. rewrite fpg_write by assumption. destruct (N.eqb_spec x p); [contradiction|reflexivity].
Qed.
Lemma fpg_truncate_db s n x : 1 <= x -> fpg (truncate_db s n) x = if x <=? n then fpg s x else zero_pg.
Proof.
  intros Hx. unfold fpg, truncate_db, reset_after. rewrite dbfile_clear_from. cbn [dbfile with_file]. rewrite firstn_pg_at.
  destruct (N.leb_spec x n), (Nat.ltb_spec (N.to_nat (x - 1)) (N.to_nat n)); try lia; reflexivity.
Qed.

Lemma apply_fpg s f fatal s' : op_apply s f fatal = (Done, s') -> wf_ltx f -> l_commit f <> 0 ->
  forall x, 1 <= x <= l_commit f -> fpg s' x = match alookup x (l_pages f) with Some q => q | None => fpg s x end.
Proof.
  intros H [Hpos Hnd] Hc x Hx. destruct (op_apply_inv s f fatal s' H) as [s4 [Ec ->]].
  pose proof (dbfile_checksum (apply_pre s f) (l_commit f) []) as Ef. rewrite Ec in Ef. cbn [snd] in Ef.
  rewrite (fpg_ext (with_pos s4 _ _ _ _ _) (apply_pre s f) x Ef).
  assert (Ep : dbfile (apply_pre s f) = dbfile (truncate_db (fold_left (fun a kv => write_db_page a (fst kv) (snd kv)) (l_pages f) s) (l_commit f))).
  { unfold apply_pre. destruct (N.eqb_spec (l_commit f) 0) as [E|_]; [contradiction|reflexivity]. }
  rewrite (fpg_ext _ _ x Ep).
  rewrite fpg_truncate_db by lia. destruct (N.leb_spec x (l_commit f)); [|lia].
  apply fpg_fold_write; [assumption|assumption|lia].
Qed.

Lemma apply_lockpg s f fatal s' : op_apply s f fatal = (Done, s') -> lockpg s' = lockpg s.
Proof. intros H. apply (apply_keeps s f fatal s' H). Qed.
Lemma apply_dirty s f fatal s' : op_apply s f fatal = (Done, s') -> dirty s' = dirty s.
Proof. intros H. apply (apply_keeps s f fatal s' H). Qed.

(* the inside of a rollback-journal transaction: a page of the old database that is not in the dirty set is what it was *)
Record SameM (s0 s : st) : Prop := {
  sm_same : forall x, 1 <= x <= pageN s0 -> ~ In x (dirty s) -> fpg s x = fpg s0 x;
  sm_pn : pageN s = pageN s0;
  sm_sorted : StronglySorted N.lt (dirty s); sm_pos : forall x, In x (dirty s) -> 1 <= x;
  sm_fix : txid s = txid s0 /\ chk s = chk s0 /\ ltxdir s = ltxdir s0 /\ lockpg s = lockpg s0
}.
Definition tx_op_ok (s0 : st) (o : op) : Prop :=
  match o with
  | OZeroFill p _ => pageN s0 < p
  | OWrite p _ => 1 <= p
  | OTruncate n => n = pageN s0
  | OCommitJournalFail _ => True
  | _ => False
  end.

Lemma same_step s0 s o s' : tx_op_ok s0 o -> SameM s0 s -> wal_mode s = false -> step s o = (Done, s') ->
  SameM s0 s' /\ wal_mode s' = false.
Proof.
  intros Hb [Hs Hp Hso Hpo Hfx] Hm H. destruct o; cbn [tx_op_ok] in Hb; try contradiction; cbn [step] in H.
  - unfold op_write_page in H. destruct (negb (writeable s)); [discriminate|]. rewrite Hm in H. inversion H; subst s'. clear H.
    split; [|exact Hm]. constructor.
    + intros x Hx Hnd. change (dirty (write_db_page (with_dirty s (insert_sorted pgno (dirty s))) pgno p)) with (insert_sorted pgno (dirty s)) in Hnd.
      rewrite insert_sorted_in in Hnd. rewrite fpg_write by lia. destruct (N.eqb_spec x pgno); [tauto|]. apply Hs; tauto.
    + exact Hp.
    + apply insert_sorted_sorted. exact Hso.
    + intros x Hx. change (In x (insert_sorted pgno (dirty s))) in Hx. apply insert_sorted_in in Hx. destruct Hx as [->|Hx]; [exact Hb|apply Hpo; exact Hx].
    + exact Hfx.
  - destruct (op_truncate_inv s n s' H) as [_ ->]. subst n. rewrite <- Hp. pose proof (frame_truncate_db s (pageN s)) as F.
    split; [|rewrite (fr_wal_mode _ _ F); exact Hm]. constructor.
    + intros x Hx Hnd. rewrite (fr_dirty _ _ F) in Hnd. rewrite fpg_truncate_db by lia.
      destruct (N.leb_spec x (pageN s)); [|lia]. apply Hs; assumption.
    + rewrite (fr_pageN _ _ F). exact Hp.
    + rewrite (fr_dirty _ _ F). exact Hso.
    + rewrite (fr_dirty _ _ F). exact Hpo.
    + rewrite (fr_txid _ _ F), (fr_chk _ _ F), (fr_ltxdir _ _ F), (fr_lockpg _ _ F). exact Hfx.
  - inversion H; subst. split; [constructor; assumption|exact Hm].
  - unfold op_zero_fill in H. inversion H; subst s'. clear H. split; [|exact Hm]. constructor; try assumption.
    intros x Hx Hnd. unfold fpg. cbn [dbfile with_file]. rewrite set_file_pg_at.
    destruct (Nat.eqb_spec (N.to_nat (x - 1)) (N.to_nat (pgno - 1))); [lia|]. apply Hs; assumption.
Qed.

Lemma same_run s0 : forall ops s s', Forall (tx_op_ok s0) ops -> SameM s0 s -> wal_mode s = false ->
  run_group s ops = (0, s') -> SameM s0 s' /\ wal_mode s' = false.
Proof.
  induction ops as [|o r IH]; intros s s' Hb HS Hm H; cbn [run_group] in H; [inversion H; subst; auto|].
  inversion Hb as [|? ? Ho Hr]; subst. destruct (step s o) as [oc s1] eqn:E.
  destruct oc; cbn [ocode] in H; try (inversion H; fail).
  destruct (same_step s0 s o s1 Ho HS Hm E) as [HS1 Hm1]. apply (IH s1 s' Hr HS1 Hm1 H).
Qed.

Lemma body_ops_ok k s zf acts :
  (forall p q, In (p, q) zf -> pageN s < p) -> Forall (act_ok k) acts ->
  Forall (tx_op_ok s) (zf_ops zf ++ act_ops (pageN s) acts).
Proof.
  intros Hzf Hacts. apply Forall_app. split; apply Forall_forall; intros o Hin.
  - unfold zf_ops in Hin. apply in_map_iff in Hin. destruct Hin as [[p q] [E Hin]]. subst o. cbn [tx_op_ok fst]. apply (Hzf p q Hin).
  - unfold act_ops in Hin. apply in_map_iff in Hin. destruct Hin as [a [E Hin]]. subst o.
    rewrite Forall_forall in Hacts. specialize (Hacts a Hin). destruct a; cbn [tx_op_ok act_ok] in *; [tauto|reflexivity|exact I].
Qed.

Lemma same_start s : dirty s = [] -> SameM s s.
Proof.
  intros Hd. constructor; try reflexivity; try assumption.
  - rewrite Hd. constructor.
  - rewrite Hd. intros x [].
  - auto.
Qed.

(* the files the primary's log gained in a step: what the stream carries to the follower *)
Definition new_files (s s' : st) : list ltxrec := skipn (length (ltxdir s)) (ltxdir s').
Lemma new_files_same s s' : ltxdir s' = ltxdir s -> new_files s s' = [].
Proof. intros E. unfold new_files. rewrite E. apply skipn_all. Qed.
Lemma new_files_snoc s s' f : ltxdir s' = ltxdir s ++ [f] -> new_files s s' = [f].
Proof. intros E. unfold new_files. rewrite E, skipn_app, skipn_all, Nat.sub_diag. reflexivity. Qed.

Lemma receive_done s f s' : op_receive s f = (Done, s') -> refused s f = false /\ applied_to s f s'.
Proof. unfold op_receive. fold (refused s f). destruct (refused s f); [discriminate|]. auto. Qed.

Lemma receive_file sR f sR' : refused sR f = false -> wf_ltx f -> run_recv sR [f] = Some sR' ->
  lockpg sR' = lockpg sR /\ pageN sR' = l_commit f /\ txid sR' = l_max f /\ chk sR' = l_post f /\
  forall x, 1 <= x <= l_commit f -> fpg sR' x = match alookup x (l_pages f) with Some q => q | None => fpg sR x end.
Proof.
  intros Hn Hwf H. cbn [run_recv] in H. unfold op_receive in H. fold (refused sR f) in H. rewrite Hn in H.
  destruct (op_apply _ f true) as [oc s1] eqn:E.
  assert (oc = Done /\ s1 = sR') as [-> ->].
  { destruct oc; try discriminate; [inversion H; auto|exfalso; exact (apply_fatal_not_failed _ _ _ E)]. }
  destruct (apply_done _ f true sR' E) as [At [Ac [Ap _]]]. pose proof (apply_lockpg _ f true sR' E) as Al.
  repeat (split; [assumption|]). intros x Hx. exact (apply_fpg _ f true sR' E Hwf ltac:(lia) x Hx).
Qed.

(* what a step of a node publishes, and where it changes the pages [L] the node stands for ([L'] afterwards): nothing, and
   no page changes; or one file [f] - the newest of its log - that names the new position, whose pages are the new pages,
   and outside of which no page of the old database changes *)
Inductive Pub (s s' : st) (L L' : N -> pg) : list ltxrec -> Prop :=
| pub_none : ltxdir s' = ltxdir s -> lockpg s' = lockpg s -> pageN s' = pageN s -> txid s' = txid s -> chk s' = chk s ->
    (forall x, 1 <= x <= pageN s -> L' x = L x) -> Pub s s' L L' []
| pub_one f rest : rev (ltxdir s') = f :: rest -> lockpg s' = lockpg s -> refused s f = false -> wf_ltx f ->
    l_commit f = pageN s' -> l_max f = txid s' -> l_post f = chk s' ->
    (forall p q, In (p, q) (l_pages f) -> 1 <= p <= l_commit f -> L' p = q) ->
    (forall x, 1 <= x <= l_commit f -> x <> lockpg s -> alookup x (l_pages f) = None -> x <= pageN s /\ L' x = L x) ->
    Pub s s' L L' [f].

Lemma pub_ext s s' L L' M M' fs : (forall x, M x = L x) -> (forall x, M' x = L' x) -> Pub s s' L L' fs -> Pub s s' M M' fs.
Proof.
  intros E E' [Hd Hl Hp Ht Hc Hq|f rest Hd Hl Hr Hw Hp Ht Hc H1 H2].
  - apply pub_none; try assumption. intros x Hx. rewrite E, E'. apply Hq, Hx.
  - apply (pub_one _ _ _ _ f rest); try assumption.
    + intros p q Hin Hpq. rewrite E'. apply (H1 p q Hin Hpq).
    + intros x Hx Hnl Ha. rewrite E, E'. apply (H2 x Hx Hnl Ha).
Qed.

Lemma pub_follow s s' L L' fs sR sR' : Pub s s' L L' fs ->
  lockpg sR = lockpg s -> pageN sR = pageN s -> txid sR = txid s -> chk sR = chk s ->
  (forall p, 1 <= p <= pageN s -> p <> lockpg s -> fpg sR p = L p) ->
  run_recv sR fs = Some sR' ->
  lockpg sR' = lockpg s' /\ pageN sR' = pageN s' /\ txid sR' = txid s' /\ chk sR' = chk s' /\
  (forall p, 1 <= p <= pageN s' -> p <> lockpg s' -> fpg sR' p = L' p).
Proof.
  intros [Hd Hl Hp Ht Hc Hq|f rest Hd Hl Hr Hw Hp Ht Hc H1 H2] A B C D E HR.
  - cbn [run_recv] in HR. inversion HR; subst sR'. repeat (split; [congruence|]).
    intros p Hp' Hnl. rewrite Hp in Hp'. rewrite Hl in Hnl. rewrite Hq by assumption. apply E; assumption.
  - assert (Hn : refused sR f = false) by (unfold refused, extends_pos in *; rewrite C, D; exact Hr).
    destruct (receive_file sR f sR' Hn Hw HR) as [Rl [Rp [Rt [Rc Rf]]]].
    repeat (split; [congruence|]). intros x Hx Hnl. rewrite <- Hp in Hx. rewrite Hl in Hnl. rewrite (Rf x Hx).
    destruct (alookup x (l_pages f)) as [q|] eqn:Ea.
    + symmetry. apply (H1 x q (alookup_in _ _ _ Ea) Hx).
    + destruct (H2 x Hx Hnl Ea) as [Hle ->]. apply E; [lia|exact Hnl].
Qed.

Lemma htx_body k s zf acts c s' : dirty s = [] -> wal_mode s = false ->
  (forall p q, In (p, q) zf -> pageN s < p) -> Forall (act_ok k) acts ->
  run_group s (hops s (HTx zf acts c)) = (0, s') ->
  exists s2, SameM s s2 /\ step s2 (OCommitJournal c) = (Done, s').
Proof.
  intros Hd Hm Hzf Hacts H. cbn [hops] in H. rewrite app_assoc, run_group_app in H.
  destruct (run_group s (zf_ops zf ++ act_ops (pageN s) acts)) as [code s2] eqn:E2. destruct code; [|inversion H].
  exists s2. split; [|apply run_group_one; exact H].
  exact (proj1 (same_run s _ s s2 (body_ops_ok k s zf acts Hzf Hacts) (same_start s Hd) Hm E2)).
Qed.

(* the finalisation after any body that kept SameM publishes the pages the file system holds for the dirty set and the
   growth; a page of the old database outside them is what it was: an argument about contents only *)
Lemma commit_pub sP s2 c sP' : SameM sP s2 -> step s2 (OCommitJournal c) = (Done, sP') ->
  Pub sP sP' (fpg sP) (fpg sP') (new_files sP sP') /\ dirty sP' = [].
Proof.
  intros [Ss Sp Sso Spo [Ft [Fc [Fd Fl]]]] H. destruct (step_commit_cases s2 c sP' H) as [[Ep [_ ->]]|Hc].
  - split; [|reflexivity]. rewrite new_files_same by exact Fd. apply pub_none; try assumption.
    intros x Hx. rewrite <- Sp, Ep in Hx. lia.
  - destruct (commit_journal_file s2 c sP' Hc) as [f [E1 [E2 [E3 [E4 [E5 [E6 [E7 [E8 E9]]]]]]]]].
    destruct (commit_journal_pos s2 c sP' Hc) as [Etx [Epn Edr]].
    destruct (commit_journal_fields s2 c sP' Hc) as [_ [El _]].
    split; [|exact Edr]. rewrite (new_files_snoc sP sP' f) by congruence.
    assert (Hkeys : forall x, In x (map fst (l_pages f)) -> x <> lockpg s2 /\ In x (journal_pgnos s2 c)).
    { intros x Hx. rewrite E7 in Hx. apply filter_In in Hx. destruct Hx as [Hx Hb]. apply negb_true_iff, N.eqb_neq in Hb. auto. }
    apply (pub_one _ _ _ _ f (rev (ltxdir sP))).
    + rewrite E1, Fd. apply rev_unit.
    + congruence.
    + unfold refused, extends_pos. rewrite E2, E4, Ft, Fc, !N.eqb_refl. apply andb_false_r.
    + split.
      * intros p q Hin. destruct (Hkeys p) as [_ Hj]; [apply in_map_iff; exists (p, q); auto|].
        apply journal_pgnos_in in Hj. destruct Hj as [[Hdd _]|[Hgt _]]; [apply Spo; exact Hdd|lia].
      * unfold KeysNoDup. rewrite E7. apply sorted_nodup, filter_sorted, journal_pgnos_sorted, Sso.
    + congruence.
    + congruence.
    + exact E5.
    + intros p q Hin _. rewrite (fpg_ext sP' s2 p E9). apply fpg_file_pg, (E8 p q Hin).
    + intros x Hx Hnl Ea. rewrite E6 in Hx. rewrite (fpg_ext sP' s2 x E9).
      apply alookup_none_iff in Ea. rewrite E7 in Ea.
      assert (Hnj : ~ In x (journal_pgnos s2 c)).
      { intros Hj. apply Ea. apply filter_In. split; [exact Hj|]. apply negb_true_iff, N.eqb_neq. congruence. }
      rewrite journal_pgnos_in in Hnj.
      assert (x <= pageN s2) as Hle by (destruct (N.le_gt_cases x (pageN s2)); [assumption|exfalso; apply Hnj; right; lia]).
      split; [lia|]. apply Ss; [lia|]. intros Hdd. apply Hnj. left. split; [exact Hdd|lia].
Qed.

(* it cuts nothing of the database: the size it names is the database's *)
Lemma truncate_pub s n s' : step s (OTruncate n) = (Done, s') ->
  Pub s s' (fpg s) (fpg s') (new_files s s') /\ dirty s' = dirty s /\ wal_file s' = wal_file s.
Proof.
  cbn [step]. intros H. destruct (op_truncate_inv s n s' H) as [-> ->]. pose proof (frame_truncate_db s (pageN s)) as F.
  split; [|split; apply F]. rewrite new_files_same by apply F. apply pub_none; try apply F.
  intros x Hx. rewrite fpg_truncate_db by lia. destruct (N.leb_spec x (pageN s)); [reflexivity|lia].
Qed.

(* the rollback-journal case, where the logical database is the database file: the follower's file against the primary's.
   The histories go through SimW of FollowWalProofs.v, of which this is the case with nothing in the log. *)
Record Sim (sP sR : st) : Prop := {
  si_lock : lockpg sR = lockpg sP; si_pn : pageN sR = pageN sP; si_tx : txid sR = txid sP; si_chk : chk sR = chk sP;
  si_pages : forall p, 1 <= p <= pageN sP -> p <> lockpg sP -> fpg sR p = fpg sP p
}.
Definition FInv (sP sR : st) : Prop := J sP /\ dirty sP = [] /\ Sim sP sR.

Lemma follow_commit_sim sP sR s2 c sP' sR' :
  Sim sP sR -> SameM sP s2 -> step s2 (OCommitJournal c) = (Done, sP') -> lockpg sP' = lockpg sP ->
  run_recv sR (new_files sP sP') = Some sR' -> dirty sP' = [] /\ Sim sP' sR'.
Proof.
  intros [A B C D E] SM H _ HR. destruct (commit_pub sP s2 c sP' SM H) as [HP Hd]. split; [exact Hd|].
  destruct (pub_follow sP sP' _ _ _ sR sR' HP A B C D E HR) as [A' [B' [C' [D' E']]]]. constructor; assumption.
Qed.

Lemma follow_step sP sR h sP' sR' : FInv sP sR -> wf_step sP h ->
  run_group sP (hops sP h) = (0, sP') -> run_recv sR (new_files sP sP') = Some sR' -> FInv sP' sR'.
Proof.
  intros [HJ [Hd HS]] Hwf H HR. destruct (j_step sP h sP' HJ Hwf H) as [HJ' El]. split; [exact HJ'|].
  destruct h as [zf acts c|n]; cbn [wf_step] in *.
  - destruct Hwf as [Hnd [Hzf Hacts]].
    destruct (htx_body true sP zf acts c sP' Hd (j_mode sP HJ) (fun p q Hin => proj1 (Hzf p q Hin)) Hacts H) as [s2 [SM Hc]].
    exact (follow_commit_sim sP sR s2 c sP' sR' HS SM Hc El HR).
  - cbn [hops] in H. apply run_group_one in H. destruct (truncate_pub sP n sP' H) as [HP [Hd' _]]. split; [congruence|].
    destruct HS as [A B C D E].
    destruct (pub_follow sP sP' _ _ _ sR sR' HP A B C D E HR) as [A' [B' [C' [D' E']]]]. constructor; assumption.
Qed.

Fixpoint follow (sP sR : st) (hs : list hstep) : option (st * st) :=
  match hs with
  | [] => Some (sP, sR)
  | h :: r => match run_group sP (hops sP h) with
              | (0, sP') => match run_recv sR (new_files sP sP') with
                            | Some sR' => follow sP' sR' r
                            | None => None
                            end
              | _ => None
              end
  end.

Lemma follow_run_hsteps : forall hs sP sR sP' sR', follow sP sR hs = Some (sP', sR') -> run_hsteps sP hs = Some sP'.
Proof.
  induction hs as [|h r IH]; intros sP sR sP' sR' H; cbn [follow run_hsteps] in *.
  - inversion H; subst. reflexivity.
  - destruct (run_group sP (hops sP h)) as [code s1]. destruct code; [|discriminate].
    destruct (run_recv sR (new_files sP s1)) as [r1|]; [|discriminate]. apply (IH s1 r1 sP' sR' H).
Qed.

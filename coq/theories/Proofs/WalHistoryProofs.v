(* C04 along histories, WAL commits: after any rollback-journal history, the transaction that takes the database into WAL mode,
   then any number of WAL commits.  The reported checksum stays the from-scratch checksum of the logical database - the
   file as it was when WAL mode was entered, overlaid with the last frame of every page each WAL transaction wrote. *)
From Coq Require Import NArith List Lia Bool Permutation.
Require Import LF.Model.PageDB LF.Proofs.ChecksumProofs LF.Proofs.CaptureProofs LF.Proofs.HistoryProofs.
Import ListNotations.
Local Open Scope N_scope.

Lemma sort_pages_perm : forall l acc, Permutation (map fst (sort_pages l acc)) (map fst l ++ map fst acc).
Proof. intros l acc. rewrite <- map_app. apply Permutation_map, sort_pages_permutation. Qed.

Lemma keys_filter {A} (f : N * A -> bool) : forall l, KeysNoDup l -> KeysNoDup (filter f l).
Proof.
  unfold KeysNoDup. induction l as [|x l IH]; intros H; cbn [filter]; [constructor|].
  cbn [map] in H. inversion H as [|? ? Hn Hd]; subst.
  destruct (f x); [|apply IH; assumption]. cbn [map]. constructor; [|apply IH; assumption].
  intros Hin. apply Hn. apply in_map_iff in Hin. destruct Hin as [y [E Hy]]. apply filter_In in Hy.
  apply in_map_iff. exists y. tauto.
Qed.

Lemma tx_pages_keys s frames commit : KeysNoDup (tx_pages s frames commit).
Proof.
  unfold tx_pages. apply keys_filter. unfold KeysNoDup.
  apply (Permutation_NoDup (l := map fst (last_versions frames ([] : list (N * pg))))).
  - symmetry. rewrite sort_pages_perm. cbn [map]. rewrite app_nil_r. reflexivity.
  - apply last_versions_keys. constructor.
Qed.
Lemma tx_new_keys s frames commit : KeysNoDup (tx_new s frames commit).
Proof. unfold tx_new, KeysNoDup. rewrite map_map. cbn [fst]. apply tx_pages_keys. Qed.

Lemma alookup_map_h p : forall (l : list (N * pg)),
  alookup p (map (fun kv => (fst kv, pg_h (snd kv))) l) = option_map pg_h (alookup p l).
Proof. induction l as [|[k v] l IH]; cbn [map alookup fst snd]; [reflexivity|]. destruct (p =? k); [reflexivity|exact IH]. Qed.

Lemma alookup_tx_pages s frames commit p : alookup p (tx_pages s frames commit) =
  if negb (p =? lockpg s) && (p <=? commit) then last_frame p frames else None.
Proof.
  destruct (alookup p (tx_pages s frames commit)) as [q|] eqn:E.
  - apply alookup_in, tx_pages_in in E. destruct E as [A [B C]]. rewrite C.
    destruct (N.eqb_spec p (lockpg s)); [contradiction|]. destruct (N.leb_spec p commit); [reflexivity|lia].
  - destruct (negb (p =? lockpg s) && (p <=? commit)) eqn:Ec; [|reflexivity].
    apply andb_true_iff in Ec. destruct Ec as [A B]. apply negb_true_iff, N.eqb_neq in A. apply N.leb_le in B.
    destruct (last_frame p frames) as [q|] eqn:El; [|reflexivity].
    assert (In (p, q) (tx_pages s frames commit)) as Hin by (apply tx_pages_in; auto).
    apply (in_alookup_nodup p q _ (tx_pages_keys s frames commit)) in Hin. congruence.
Qed.

Lemma tx_new_lookup s frames commit p : alookup p (tx_new s frames commit) =
  if negb (p =? lockpg s) && (p <=? commit) then option_map pg_h (last_frame p frames) else None.
Proof.
  unfold tx_new. rewrite alookup_map_h, alookup_tx_pages. destruct (negb (p =? lockpg s) && (p <=? commit)); reflexivity.
Qed.

Lemma truncated_pages_keys s : forall n start new0 new,
  truncated_pages s start n new0 = Some new -> KeysNoDup new0 -> KeysNoDup new.
Proof.
  induction n as [|n IH]; intros start new0 new H Hk; cbn [truncated_pages] in H.
  - inversion H; subst; assumption.
  - destruct (pageN s <? start); [inversion H; subst; assumption|].
    destruct (start =? lockpg s); [apply (IH _ _ _ H Hk)|].
    destruct (read_page s start) as [q|]; [|discriminate].
    destruct (page_chk s start (pageN s) []) as [c ok]. destruct (c =? pg_h q); [|discriminate].
    apply (IH _ _ _ H). apply aput_keys_nodup. assumption.
Qed.

Lemma alookup_append_chk : forall new wc p, KeysNoDup new ->
  alookup p (append_chk new wc) =
  match alookup p new with
  | Some c => Some ((match alookup p wc with Some l => l | None => [] end) ++ [c])
  | None => alookup p wc
  end.
Proof.
  induction new as [|[k c] r IH]; intros wc p Hnd; cbn [append_chk alookup]; [reflexivity|].
  unfold KeysNoDup in Hnd. cbn [map fst] in Hnd. inversion Hnd as [|? ? Hn Hd]; subst.
  rewrite (IH _ _ Hd). destruct (N.eqb_spec p k) as [->|Hne].
  - rewrite (proj2 (alookup_none_iff k r) Hn), alookup_aput, N.eqb_refl. reflexivity.
  - rewrite alookup_aput. destruct (N.eqb_spec p k); [contradiction|]. reflexivity.
Qed.
Lemma last_or0_snoc l c : last_or0 (l ++ [c]) = Some c.
Proof. unfold last_or0. rewrite rev_app_distr. reflexivity. Qed.

(* what CommitWAL leaves in its picture of the log: the frames, the last one carrying the size *)
Definition tx_frames (frames : list (N * pg)) (commit : N) : list (N * pg * N) :=
  map (fun kv => (fst kv, snd kv, 0)) (removelast frames) ++
  match rev frames with (p, q) :: _ => [(p, q, commit)] | [] => [] end.

(* CommitWAL, with what a history needs: beyond the database size a page's cache slot is empty or the page has WAL
   entries (it was cut off by an earlier WAL commit) *)
Lemma commit_wal_gen s frames commit s' :
  CacheOK s -> LockZero s -> (forall p, pageN s < p -> dbc s p = 0 \/ alookup p (wal_chk s) <> None) ->
  op_commit_wal s frames commit = (Done, s') ->
  exists new,
    truncated_pages s (commit + 1) (N.to_nat (pageN s)) (tx_new s frames commit) = Some new /\
    chk s' = scratch (eff s commit (tx_new s frames commit)) commit /\
    txid s' = txid s + 1 /\ pageN s' = commit /\ CacheOK s' /\ (forall p, dbc s' p = dbc s p) /\
    wal_chk s' = append_chk new (wal_chk s) /\ writeable s' = true /\ lockpg s' = lockpg s /\
    wal_mode s' = match alookup 1 (tx_pages s frames commit) with Some q => pg_wal q | None => wal_mode s end /\
    wal_file s' = wal_file s ++ tx_frames frames commit /\ dbfile s' = dbfile s.
Proof.
  intros HC HL HT H. apply op_commit_wal_inv in H. destruct H as (new & post & s1 & Etr & Eck & Ew1 & ->).
  destruct (truncated_pages_spec s _ _ _ _ Etr) as [T1 T2].
  destruct (checksum_result _ _ _ _ _ Eck) as [HS [S3 [Hdbc HC2]]]. specialize (HC2 HC).
  (* a page past the new size is truncated away here (an entry in [new]), or lay beyond the database already *)
  assert (Pre s commit new) as HP.
  { apply pre_intro; [exact HC|exact HL|]. intros p Hp.
    destruct (N.le_gt_cases p (pageN s)) as [Hle|Hgt]; [|destruct (HT p Hgt); auto].
    destruct (N.eq_dec p (lockpg s)) as [->|Hnl]; [left; exact HL|]. right. left. apply T2; lia. }
  pose proof (checksum_is_scratch s commit new post s1 HP Eck) as Hpost.
  destruct HS as [_ S2 _ S5 S7 _ S9 _ _ _ _].
  exists new. split; [exact Etr|].
  cbn [chk txid pageN wal_chk writeable lockpg wal_mode wal_file dbfile with_pos with_wal].
  rewrite S5, S7, S9. split.
  { rewrite Hpost. apply scratch_ext. intros p Hp. rewrite !eff_eq, T1 by lia. reflexivity. }
  repeat (split; [reflexivity || assumption|]). exact S3.
Qed.

(* CommitWAL: the reported checksum is the from-scratch XOR, over pages 1..commit, of: the page's
   checksum in this transaction if it wrote the page, else its last committed WAL version, else the
   database file's checksum. *)
Theorem commit_wal_checksum s frames commit s' :
  CacheOK s -> LockZero s -> (forall p, pageN s < p -> dbc s p = 0) ->
  op_commit_wal s frames commit = (Done, s') ->
  chk s' = scratch (eff s commit (tx_new s frames commit)) commit /\
  txid s' = txid s + 1 /\ pageN s' = commit /\ CacheOK s' /\ (forall p, dbc s' p = dbc s p).
Proof.
  intros HC HL HT H.
  destruct (commit_wal_gen s frames commit s' HC HL (fun p Hp => or_introl (HT p Hp)) H) as [_ [_ [C1 [C2 [C3 [C4 [C5 _]]]]]]].
  auto.
Qed.

(* [v] is the logical database: the checksum of the current version of every page *)
Record WL (s : st) (v : N -> N) : Prop := {
  w_w : writeable s = true; w_mode : wal_mode s = true; w_lk1 : 1 <= lockpg s;
  w_cache : CacheOK s; w_lz : LockZero s;
  w_view : forall p, 1 <= p <= pageN s -> p <> lockpg s -> eff s (pageN s) [] p = v p;
  w_tail : forall p, pageN s < p -> dbc s p = 0 \/ alookup p (wal_chk s) <> None;
  w_chk : chk s = scratch (fun p => if p =? lockpg s then 0 else v p) (pageN s)
}.

(* the logical database after a WAL transaction: its last frame for every page it wrote within the new size *)
Definition overlay (lock : N) (frames : list (N * pg)) (commit : N) (v : N -> N) : N -> N :=
  fun p => if negb (p =? lock) && (p <=? commit)
           then match last_frame p frames with Some q => pg_h q | None => v p end
           else v p.

(* what SQLite guarantees about a WAL transaction: every page the database gains is among the frames; page 1, if written,
   still carries the WAL versions *)
Definition wf_wal (s : st) (frames : list (N * pg)) (commit : N) : Prop :=
  (forall p, pageN s < p <= commit -> p <> lockpg s -> exists q, In (p, q) frames) /\
  (forall q, In (1, q) frames -> pg_wal q = true).

Lemma commit_wal_chk s frames commit s' :
  CacheOK s -> LockZero s -> (forall p, pageN s < p -> dbc s p = 0 \/ alookup p (wal_chk s) <> None) ->
  op_commit_wal s frames commit = (Done, s') ->
  (forall p, p <= commit -> alookup p (wal_chk s') =
     match alookup p (tx_new s frames commit) with
     | Some c => Some ((match alookup p (wal_chk s) with Some l => l | None => [] end) ++ [c])
     | None => alookup p (wal_chk s)
     end) /\
  (forall p, commit < p <= pageN s -> p <> lockpg s -> alookup p (wal_chk s') <> None) /\
  (forall p, alookup p (wal_chk s) <> None -> alookup p (wal_chk s') <> None).
Proof.
  intros HC HL HT H. destruct (commit_wal_gen s frames commit s' HC HL HT H) as [new [Etr [_ [_ [_ [_ [_ [C6 _]]]]]]]].
  destruct (truncated_pages_commit s _ _ _ Etr) as [T1 T2].
  pose proof (truncated_pages_keys s _ _ _ _ Etr (tx_new_keys s frames commit)) as Hkn.
  rewrite C6. split; [|split].
  - intros p Hp. rewrite (alookup_append_chk _ _ _ Hkn), (T1 p Hp). reflexivity.
  - intros p Hp Hnl. rewrite (alookup_append_chk _ _ _ Hkn). pose proof (T2 p Hp Hnl).
    destruct (alookup p new); [discriminate|contradiction].
  - intros p Hw. rewrite (alookup_append_chk _ _ _ Hkn). destruct (alookup p new); [discriminate|exact Hw].
Qed.

Lemma wf_wal_old s frames commit p : wf_wal s frames commit -> p <= commit -> p <> lockpg s ->
  last_frame p frames = None -> p <= pageN s.
Proof.
  intros [Hg _] Hp Hnl Hl. destruct (N.le_gt_cases p (pageN s)) as [|Hgt]; [assumption|].
  destruct (Hg p (conj Hgt Hp) Hnl) as [q Hq]. apply last_frame_some in Hq. contradiction.
Qed.

Lemma eff_overlay s v frames commit p :
  (forall p, 1 <= p <= pageN s -> p <> lockpg s -> eff s (pageN s) [] p = v p) -> wf_wal s frames commit ->
  1 <= p <= commit -> p <> lockpg s ->
  eff s commit (tx_new s frames commit) p = overlay (lockpg s) frames commit v p.
Proof.
  intros Wv Hwf Hp Hnl. unfold overlay. rewrite eff_eq, tx_new_lookup.
  destruct (N.eqb_spec p (lockpg s)); [contradiction|]. destruct (N.ltb_spec commit p); [lia|].
  destruct (N.leb_spec p commit); [|lia]. cbn [negb andb].
  destruct (last_frame p frames) as [q|] eqn:El; cbn [option_map]; [reflexivity|].
  pose proof (wf_wal_old s frames commit p Hwf (proj2 Hp) Hnl El) as Hle.
  rewrite <- (Wv p (conj (proj1 Hp) Hle) Hnl), eff_eq.
  destruct (N.eqb_spec p (lockpg s)); [contradiction|]. destruct (N.ltb_spec (pageN s) p); [lia|reflexivity].
Qed.

Lemma w_step s v frames commit s' : WL s v -> wf_wal s frames commit -> op_commit_wal s frames commit = (Done, s') ->
  WL s' (overlay (lockpg s) frames commit v) /\ lockpg s' = lockpg s /\ txid s' = txid s + 1 /\ pageN s' = commit.
Proof.
  intros [Ww Wm Wl Wc Wz Wv Wt Wk] Hwf H.
  destruct (commit_wal_gen s frames commit s' Wc Wz Wt H) as [new [_ [C1 [C2 [C3 [C4 [C5 [_ [C7 [C8 [C9 _]]]]]]]]]]].
  destruct (commit_wal_chk s frames commit s' Wc Wz Wt H) as [K1 [K2 K3]].
  pose proof (fun p => eff_overlay s v frames commit p Wv Hwf) as Hov.
  split; [|split; [exact C8|split; assumption]].
  constructor; rewrite ?C3, ?C8.
  - exact C7.
  - rewrite C9. destruct (alookup 1 (tx_pages s frames commit)) as [q|] eqn:E1; [|exact Wm].
    apply alookup_in, tx_pages_in in E1. destruct E1 as [_ [_ E1]]. apply (proj2 Hwf). apply last_frame_in. exact E1.
  - exact Wl.
  - exact C4.
  - unfold LockZero. rewrite C8, C5. exact Wz.
  - (* the page answers from its new last WAL entry, or as before *)
    intros p Hp Hnl. rewrite <- (Hov p Hp Hnl), !eff_eq, C8, C5, (K1 p (proj2 Hp)). cbn [alookup].
    destruct (p =? lockpg s); [reflexivity|]. destruct (commit <? p); [reflexivity|].
    destruct (alookup p (tx_new s frames commit)) as [c|]; [|reflexivity].
    rewrite last_or0_snoc. reflexivity.
  - intros p Hp. rewrite C5. destruct (N.le_gt_cases p (pageN s)) as [Hle|Hgt].
    + destruct (N.eq_dec p (lockpg s)) as [->|Hnl]; [left; exact Wz|right; exact (K2 p (conj Hp Hle) Hnl)].
    + destruct (Wt p Hgt) as [Hz|Hw]; [left; exact Hz|right; exact (K3 p Hw)].
  - rewrite C1. apply scratch_ext. intros p Hp.
    destruct (N.eqb_spec p (lockpg s)) as [->|Hnl]; [|apply Hov; assumption].
    rewrite eff_eq, N.eqb_refl. reflexivity.
Qed.

Lemma wl_entry s : JB s -> wal_mode s = true -> wal_chk s = [] -> txid s <> 0 -> WL s (file_h s).
Proof.
  intros [A B C D E F G] Hm Hk Ht. constructor; try assumption.
  - intros p Hp Hnl. rewrite eff_cases, Hk by (exact Hnl || apply Hp).
    apply E; assumption.
  - intros p Hp. left. apply F. assumption.
  - apply G. assumption.
Qed.

Definition wstep := (list (N * pg) * N)%type.      (* the frames of one committed WAL transaction, the size its commit frame names *)
Fixpoint run_wal (s : st) (v : N -> N) (ws : list wstep) : option (st * (N -> N)) :=
  match ws with
  | [] => Some (s, v)
  | (fr, c) :: r => match op_commit_wal s fr c with
                    | (Done, s') => run_wal s' (overlay (lockpg s) fr c v) r
                    | _ => None
                    end
  end.
Fixpoint wf_wals (s : st) (ws : list wstep) : Prop :=
  match ws with
  | [] => True
  | (fr, c) :: r => wf_wal s fr c /\ forall s', op_commit_wal s fr c = (Done, s') -> wf_wals s' r
  end.

Theorem wal_history_invariant : forall ws s v s' v',
  WL s v -> wf_wals s ws -> run_wal s v ws = Some (s', v') -> WL s' v' /\ lockpg s' = lockpg s.
Proof.
  induction ws as [|[fr c] r IH]; intros s v s' v' HW Hwf H; cbn [run_wal wf_wals] in *.
  - inversion H; subst. split; [exact HW|reflexivity].
  - destruct Hwf as [Hw Hrest]. destruct (op_commit_wal s fr c) as [oc s1] eqn:E.
    destruct oc; try discriminate. destruct (w_step s v fr c s1 HW Hw E) as [HW1 [El1 _]].
    destruct (IH s1 _ s' v' HW1 (Hrest s1 eq_refl) H) as [HW' El']. split; [exact HW'|congruence].
Qed.

(* C04 for every history of this shape from an empty node: any rollback-journal history [hs]; the transaction that rewrites
   page 1 with the WAL versions; any number of WAL commits [ws].  The position's checksum is the from-scratch checksum of
   the logical database [v'] - computed from the file at the switch and the frames alone - and what LiteFS would answer
   for any page's checksum is that page's entry in it. *)
Theorem wal_history_checksum lock hs zf acts c ws s1 s2 s' v' :
  1 <= lock -> wf_hist (init lock) hs -> run_hsteps (init lock) hs = Some s1 ->
  wf_tx_any s1 zf acts -> run_group s1 (hops s1 (HTx zf acts c)) = (0, s2) -> wal_mode s2 = true ->
  wf_wals s2 ws -> run_wal s2 (file_h s2) ws = Some (s', v') ->
  chk s' = scratch (fun p => if p =? lock then 0 else v' p) (pageN s') /\
  (forall p, 1 <= p <= pageN s' -> p <> lock -> eff s' (pageN s') [] p = v' p) /\ lockpg s' = lock.
Proof.
  intros Hl Hwf H1 Hsw H2 Hm Hww H3.
  destruct (journal_history_invariant hs (init lock) s1 (j_init lock Hl) Hwf H1) as [HJ El1].
  change (lockpg (init lock)) with lock in El1.
  destruct (tx_step_any s1 zf acts c s2 HJ Hsw H2 Hm) as [HB [Hk [Et [_ El2]]]].
  assert (WL s2 (file_h s2)) as HW by (apply wl_entry; [assumption|assumption|assumption|rewrite Et, N.add_1_r; apply N.neq_succ_0]).
  destruct (wal_history_invariant ws s2 (file_h s2) s' v' HW Hww H3) as [HW' El'].
  assert (lockpg s' = lock) as El by congruence.
  destruct HW'. rewrite El in *. split; [assumption|]. split; [assumption|reflexivity].
Qed.

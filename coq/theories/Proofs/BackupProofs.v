(* C14: the backup sync uploads a gap-free chain, never overwrites the service, converges on an idle primary. *)
From Coq Require Import ZArith List Bool Lia.
Require Import LF.Model.PageDB LF.Model.Repl LF.Model.Backup.
Import ListNotations.
Local Open Scope N_scope.

Lemma is_zero_spec p : is_zero p = true <-> p = (0, 0).
Proof. destruct p as [a b]. unfold is_zero. cbn. rewrite andb_true_iff, !N.eqb_eq. split; [intros [-> ->]; reflexivity|intros H; inversion H; tauto]. Qed.

Lemma is_zero_false p : fst p <> 0 -> is_zero p = false.
Proof. intros H. unfold is_zero. destruct (N.eqb_spec (fst p) 0); [contradiction|reflexivity]. Qed.

Lemma have_range_spec dir : forall n lo, have_range dir lo n = true ->
  forall t, lo <= t < lo + N.of_nat n -> exists f, open_ltx dir t = Some f.
Proof.
  induction n as [|n IH]; intros lo H t Ht; [lia|]. cbn [have_range] in H.
  destruct (open_ltx dir lo) as [f|] eqn:E; [|discriminate].
  destruct (N.eq_dec t lo) as [->|Hne]; [exists f; exact E|]. apply (IH (lo + 1) H). lia.
Qed.
Lemma have_range_complete dir : forall n lo,
  (forall t, lo <= t < lo + N.of_nat n -> exists f, open_ltx dir t = Some f) -> have_range dir lo n = true.
Proof.
  induction n as [|n IH]; intros lo H; [reflexivity|]. cbn [have_range].
  destruct (H lo) as [f E]; [lia|]. rewrite E. apply IH. intros t Ht. apply H. lia.
Qed.

Lemma send_spec ex lpos dir rpos lo hi : backup_decide ex lpos dir rpos = BSend lo hi ->
  ex = true /\ lo = fst rpos + 1 /\ lo <= hi /\ hi <= fst lpos /\ hi < lo + max_batch /\ fst rpos < fst lpos /\
  (forall t, lo <= t <= hi -> exists f, open_ltx dir t = Some f).
Proof.
  unfold backup_decide, max_batch. destruct ex; cbn [negb]; [|destruct (is_zero rpos); discriminate].
  destruct (is_zero lpos && is_zero rpos); [discriminate|]. destruct (is_zero rpos); [discriminate|].
  destruct (N.ltb_spec (fst lpos) (fst rpos)); [discriminate|].
  destruct (N.eqb_spec (fst rpos) (fst lpos)); [destruct (_ =? _); discriminate|].
  destruct (have_range _ _ _) eqn:Hr; [|discriminate]. intros Hinv; inversion Hinv; subst. clear Hinv.
  repeat split; try lia. intros t Ht. apply (have_range_spec _ _ _ Hr). lia.
Qed.
Lemma restore_cases ex lpos dir rpos :
  ex = true -> is_zero rpos = false ->
  (fst lpos < fst rpos -> backup_decide ex lpos dir rpos = BRestore 2) /\
  (fst rpos = fst lpos -> snd rpos <> snd lpos -> backup_decide ex lpos dir rpos = BRestore 3) /\
  (fst rpos < fst lpos -> (exists t, fst rpos < t <= N.min (fst lpos) (fst rpos + max_batch) /\ open_ltx dir t = None) ->
     backup_decide ex lpos dir rpos = BRestore 4).
Proof.
  intros -> Hr. unfold backup_decide. cbn [negb]. rewrite Hr, andb_false_r. repeat split.
  - intros H. destruct (N.ltb_spec (fst lpos) (fst rpos)); [reflexivity|lia].
  - intros H1 H2. destruct (N.ltb_spec (fst lpos) (fst rpos)); [lia|]. rewrite H1, N.eqb_refl.
    destruct (N.eqb_spec (snd rpos) (snd lpos)); [contradiction|reflexivity].
  - intros H [t [Ht Hn]]. destruct (N.ltb_spec (fst lpos) (fst rpos)); [lia|].
    destruct (N.eqb_spec (fst rpos) (fst lpos)); [lia|].
    destruct (have_range _ _ _) eqn:E; [|reflexivity]. exfalso.
    destruct (have_range_spec _ _ _ E t) as [f Hf]; [lia|congruence].
Qed.

Lemma empty_local_adopts dir rpos : 0 < fst rpos -> backup_decide true (0, 0) dir rpos = BRestore 2.
Proof.
  intros H. apply (restore_cases true (0, 0) dir rpos eq_refl); [apply is_zero_false; lia|exact H].
Qed.

Fixpoint svc_linked (p : pos) (files : list (N * N * N * N)) : option pos :=
  match files with
  | [] => Some p
  | (mn, mx, pre, post) :: r => if (mn =? fst p + 1) && (pre =? snd p) then svc_linked (mx, post) r else None
  end.
(* started empty: the files form one gap-free chain that ends at the service's position *)
Definition SvcChain (s : svc) : Prop := svc_linked (0, 0) (s_files s) = Some (s_pos s).

Lemma svc_linked_app p a b : svc_linked p (a ++ b) = match svc_linked p a with Some q => svc_linked q b | None => None end.
Proof.
  revert p. induction a as [|[[[mn mx] pre] post] r IH]; intros p; cbn [app svc_linked]; [reflexivity|].
  destruct (_ && _); [apply IH|reflexivity].
Qed.
Lemma svc_write_chain s f s' : SvcChain s -> svc_write s f = Some s' -> SvcChain s'.
Proof.
  unfold SvcChain, svc_write. destruct f as [[[mn mx] pre] post]. intros Hc H.
  destruct ((mn =? fst (s_pos s) + 1) && (pre =? snd (s_pos s))) eqn:E; [|discriminate]. inversion H; subst. cbn [s_files s_pos].
  rewrite svc_linked_app, Hc. cbn [svc_linked]. rewrite E. reflexivity.
Qed.

Lemma sync_service b :
  b_svc (fst (sync b)) = b_svc b \/
  exists f, svc_write (b_svc b) f = Some (b_svc (fst (sync b))) /\ snd (sync b) = OUploaded.
Proof.
  unfold sync. destruct (backup_decide _ _ _ _) as [| | |r|lo hi] eqn:Ed; cbn [fst snd]; try (left; reflexivity).
  - destruct (svc_write _ _) as [s'|] eqn:Ew; cbn [fst snd b_svc]; [|left; reflexivity].
    right. eexists. split; [exact Ew|reflexivity].
  - destruct (is_zero _); cbn; left; reflexivity.
  - destruct (compact _ _ _) as [f|] eqn:Ec; cbn [fst snd]; [|left; reflexivity].
    destruct (svc_write _ f) as [s'|] eqn:Ew; cbn [fst snd b_svc restore]; [|left; reflexivity].
    right. exists f. split; [exact Ew|reflexivity].
Qed.
Lemma sync_keeps_chain b : SvcChain (b_svc b) -> SvcChain (b_svc (fst (sync b))).
Proof.
  intros H. destruct (sync_service b) as [->|[f [Hw _]]]; [exact H|]. eapply svc_write_chain; eassumption.
Qed.

Lemma sync_hwm b : b_hwm b <= fst (s_pos (b_svc b)) -> b_hwm (fst (sync b)) <= fst (s_pos (b_svc (fst (sync b)))).
Proof.
  intros H. unfold sync. destruct (backup_decide _ _ _ _) as [| | |r|lo hi] eqn:Ed; cbn [fst]; try exact H.
  - unfold svc_write. destruct (_ && _); cbn [fst b_hwm b_svc s_pos]; [lia|exact H].
  - destruct (is_zero _); cbn [fst restore b_hwm b_svc]; exact H.
  - destruct (compact _ _ _) as [[[[mn mx] pre] post]|] eqn:Ec; cbn [fst]; [|exact H].
    unfold svc_write. destruct (_ && _); cbn [fst restore b_hwm b_svc s_pos]; [|exact H].
    unfold compact in Ec. destruct (open_ltx (b_dir b) lo), (open_ltx (b_dir b) hi); inversion Ec; subst. lia.
Qed.

Lemma restore_adopts b r : backup_decide (b_exists b) (b_lpos b) (b_dir b) (s_pos (b_svc b)) = BRestore r ->
  is_zero (s_pos (b_svc b)) = false ->
  b_lpos (fst (sync b)) = s_pos (b_svc b) /\ b_svc (fst (sync b)) = b_svc b /\ snd (sync b) = ORestored.
Proof. intros Hd Hz. unfold sync. rewrite Hd, Hz. cbn. tauto. Qed.

(* the primary's history from the service's position on: checksum h t after transaction t, one file per transaction *)
Section Converge.
  Variables (h : N -> N) (dir : list ltxrec) (l : N).
  Hypothesis Hfiles : forall t, 1 <= t <= l -> exists f, open_ltx dir t = Some f /\ l_pre f = h (t - 1) /\ l_post f = h t.
  Hypothesis Hl : 1 <= l.

  Definition on_history (b : bstate) : Prop :=
    b_exists b = true /\ b_lpos b = (l, h l) /\ b_dir b = dir /\
    1 <= fst (s_pos (b_svc b)) <= l /\ snd (s_pos (b_svc b)) = h (fst (s_pos (b_svc b))).

  Lemma sync_progress b : on_history b -> fst (s_pos (b_svc b)) < l ->
    on_history (fst (sync b)) /\
    fst (s_pos (b_svc (fst (sync b)))) = N.min l (fst (s_pos (b_svc b)) + max_batch).
  Proof.
    intros [He [Hp [Hd [Hr Hc]]]] Hlt. set (r := fst (s_pos (b_svc b))) in *.
    set (hi := N.min l (r + max_batch)).
    assert (backup_decide (b_exists b) (b_lpos b) (b_dir b) (s_pos (b_svc b)) = BSend (r + 1) hi) as Ed.
    { unfold backup_decide. rewrite He, Hp, Hd. cbn [negb fst snd].
      rewrite (is_zero_false (l, h l)), (is_zero_false (s_pos (b_svc b))) by (cbn [fst]; lia).
      fold r. destruct (N.ltb_spec l r); [lia|]. destruct (N.eqb_spec r l); [lia|].
      fold hi. rewrite have_range_complete; [reflexivity|].
      intros t Ht. destruct (Hfiles t) as [f [Hf _]]; [unfold hi, max_batch in *; lia|]. exists f. exact Hf. }
    unfold sync. rewrite Ed. unfold compact. rewrite Hd.
    destruct (Hfiles (r + 1)) as [fa [Ea [Pa _]]]; [lia|]. destruct (Hfiles hi) as [fb [Eb [_ Pb]]]; [unfold hi, max_batch; lia|].
    rewrite Ea, Eb. unfold svc_write. fold r. rewrite Pa, Pb.
    replace (r + 1 - 1) with r by lia. rewrite Hc. fold r. rewrite !N.eqb_refl. cbn [andb fst snd b_svc s_pos].
    split; [|reflexivity]. unfold on_history. cbn [b_exists b_lpos b_dir b_svc s_pos fst snd].
    repeat split; try assumption; unfold hi, max_batch; lia.
  Qed.

  Lemma sync_done b : on_history b -> fst (s_pos (b_svc b)) = l -> sync b = (b, OInSync).
  Proof.
    intros [He [Hp [Hd [Hr Hc]]]] Heq. unfold sync, backup_decide. rewrite He, Hp. cbn [negb fst snd].
    rewrite (is_zero_false (l, h l)), (is_zero_false (s_pos (b_svc b))) by (cbn [fst]; lia).
    rewrite Heq. destruct (N.ltb_spec l l); [lia|]. rewrite N.eqb_refl, Hc, Heq, N.eqb_refl. reflexivity.
  Qed.

  Theorem sync_converges n : forall b, on_history b ->
    on_history (sync_n n b) /\
    fst (s_pos (b_svc (sync_n n b))) = N.min l (fst (s_pos (b_svc b)) + max_batch * N.of_nat n).
  Proof.
    induction n as [|n IH]; intros b Hb; cbn [sync_n].
    - split; [exact Hb|]. destruct Hb as [_ [_ [_ [Hr _]]]]. lia.
    - destruct (N.lt_ge_cases (fst (s_pos (b_svc b))) l) as [Hlt|Hge].
      + destruct (sync_progress b Hb Hlt) as [Hb' Hp]. destruct (IH _ Hb') as [A B]. split; [exact A|].
        rewrite B, Hp. unfold max_batch. lia.
      + assert (fst (s_pos (b_svc b)) = l) as E by (destruct Hb as [_ [_ [_ [Hr _]]]]; lia).
        rewrite (sync_done b Hb E). cbn [fst]. destruct (IH b Hb) as [A B]. split; [exact A|]. rewrite B, E. unfold max_batch. lia.
  Qed.
  Corollary sync_reaches_primary n b : on_history b -> l <= fst (s_pos (b_svc b)) + max_batch * N.of_nat n ->
    s_pos (b_svc (sync_n n b)) = (l, h l).
  Proof.
    intros Hb Hn. destruct (sync_converges n b Hb) as [[_ [_ [_ [_ Hc]]]] Hp].
    destruct (s_pos (b_svc (sync_n n b))) as [t c]. cbn [fst snd] in *. rewrite Hc, Hp. f_equal; [lia|f_equal; lia].
  Qed.
End Converge.

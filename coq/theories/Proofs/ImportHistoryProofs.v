(* C16 over histories: after every history of C04_history's steps, a completed import of a whole image followed by an
   export returns exactly the imported pages at a position that is the node's previous one plus one and whose checksum is
   the from-scratch checksum of the imported image. *)
From Coq Require Import NArith List Lia.
Require Import LF.Model.PageDB LF.Proofs.ChecksumProofs LF.Proofs.ChainProofs LF.Proofs.ApplyProofs
  LF.Proofs.HistoryProofs LF.Proofs.SqlCheckpointProofs LF.Proofs.ComposeProofs.
Import ListNotations.
Local Open Scope N_scope.

Lemma import_wal_latest s pages commit s' : op_import s pages commit true = (Done, s') -> wal_latest s' = [].
Proof.
  intros H. destruct (op_import_inv s pages commit true s' H) as [_ [_ Ha]].
  destruct (apply_keeps _ _ true s' Ha) as [_ [_ [_ [Ewl _]]]]. exact Ewl.
Qed.

Theorem g_history_import_export lock gs s v pages commit s' :
  1 <= lock -> wf_gsteps (init lock) gs -> run_gsteps (init lock) (fun _ => 0) gs = Some (s, v) ->
  wf_import s pages commit -> grun s (GImport pages commit) = Some s' ->
  txid s' = txid s + 1 /\ pageN s' = commit /\ snd (op_export s') = (txid s', chk s') /\
  (forall p, 1 <= p <= commit -> p <> lock -> read_page s' p = alookup p pages) /\
  chk s' = scratch (fun p => if p =? lock then 0 else match alookup p pages with Some q => pg_h q | None => 0 end) commit.
Proof.
  intros Hl Hwf Hrun Hwi Hg.
  destruct (g_history_invariant gs _ _ s v (ginv_init lock Hl) Hwf Hrun) as [HI El]. change (lockpg (init lock)) with lock in El.
  pose proof (grun_inv s _ s' Hg) as E. cbn beta iota in E.
  destruct (import_step s v pages commit s' HI Hwi E) as [HI' El']. rewrite El in El'.
  destruct Hwi as [Hpos [Hnd [Hc0 [Hl1 Hcov]]]].
  assert (0 < commit) as Hcp by lia.
  assert (Hk : forall kv, In kv pages -> 1 <= fst kv) by (intros [p q] Hin; exact (Hpos p q Hin)).
  destruct (import_exact s pages commit s' E Hcp Hk Hnd) as [f [_ [_ [_ [_ [_ [Ht [_ [Hp Hr]]]]]]]]].
  pose proof (import_wal_latest s pages commit s' E) as Ewl.
  assert (Hread : forall p, 1 <= p <= commit -> p <> lock -> read_page s' p = alookup p pages).
  { intros p Hp' Hnl. destruct (alookup p pages) as [q|] eqn:Ea; [|exfalso; exact (Hcov p Hp' Ea)].
    apply Hr; [apply alookup_in; exact Ea|rewrite El; exact Hnl|lia]. }
  split; [exact Ht|]. split; [exact Hp|]. split; [reflexivity|]. split; [exact Hread|].
  pose proof (ginv_file_chk s' HI' ltac:(lia)) as Hchk. rewrite El' in Hchk.
  rewrite Hchk, Hp. apply scratch_ext. intros p Hp'. destruct (p =? lock) eqn:Epl; [reflexivity|]. apply N.eqb_neq in Epl.
  unfold file_h. pose proof (Hread p Hp' Epl) as R. unfold read_page in R. rewrite Ewl in R. cbn [alookup] in R. rewrite R. reflexivity.
Qed.

(* the history of Props/C04.v's example up to its drop; then the import of a two-page image into the dropped database *)
Definition import_example_history : list gstep :=
  let pg h n := mkPg (fl h) n false in
  let pw h n := mkPg (fl h) n true in
  let x3 a b c := fl (N.lxor (N.lxor (fl a) (fl b)) (fl c)) in
  [GJ (HTx [] [AWrite 1 (pg 11 2); AWrite 2 (pg 19 0); AFail 2; AWrite 2 (pg 12 0)] 2);
   GRestart;
   GSwitch [] [AWrite 1 (pw 13 2)] 2;
   GW (W2Commit [(1, pw 14 3); (3, pw 33 0); (2, pw 23 0)] 3);
   GRestart;
   GW (W2Commit [(2, pw 24 0)] 3);
   GW W2SqlRestart;
   GLeave (pg 15 3) 3;
   GJ (HTx [] [AWrite 3 (pg 36 0)] 3);
   GRecv (mkLtx 7 7 (x3 15 24 36) (x3 15 27 36) 3 [(2, pg 27 0)]);
   GRecv (mkLtx 9 9 0 0 1 []);
   GForward (mkLtx 8 8 0 0 1 []) true;
   GForward (mkLtx 8 8 (x3 15 27 36) (x3 18 27 36) 3 [(1, pg 18 3)]) true;
   GDrop].
Definition import_example_image : list (N * pg) := [(1, mkPg (fl 41) 2 false); (2, mkPg (fl 42) 0 false)].

(* C19: what the proxy does with a request, by method, cookie and role. *)
From Coq Require Import NArith List Bool Lia.
Require Import LF.Model.Proxy.
Import ListNotations.
Local Open Scope N_scope.

Lemma poll_true want obs : poll want obs = true <-> exists pre p post, obs = pre ++ p :: post /\ want <= p /\ forall x, In x pre -> x < want.
Proof.
  induction obs as [|p r IH]; cbn [poll].
  - split; [discriminate|]. intros [pre [p [post [E _]]]]. destruct pre; discriminate.
  - destruct (N.leb_spec want p) as [Hle|Hgt].
    + split; [|reflexivity]. intros _. exists [], p, r. split; [reflexivity|]. split; [assumption|]. intros x [].
    + rewrite IH. split.
      * intros [pre [q [post [E [Hq Hpre]]]]]. exists (p :: pre), q, post. split; [cbn; congruence|]. split; [assumption|].
        intros x [->|Hx]; [assumption|apply Hpre; assumption].
      * intros [pre [q [post [E [Hq Hpre]]]]]. destruct pre as [|a pre]; cbn in E; inversion E; subst; [lia|].
        exists pre, q, post. split; [reflexivity|]. split; [assumption|]. intros x Hx. apply Hpre. right; assumption.
Qed.

Lemma poll_false want obs : poll want obs = false <-> forall x, In x obs -> x < want.
Proof.
  induction obs as [|p r IH]; cbn [poll In]; [split; [intros _ x []|reflexivity]|].
  destruct (N.leb_spec want p) as [Hle|Hgt].
  - split; [discriminate|]. intros H. specialize (H p (or_introl eq_refl)). lia.
  - rewrite IH. split; [intros H x [<-|Hx]; [exact Hgt|exact (H x Hx)]|intros H x Hx; apply H; right; exact Hx].
Qed.

(* a read carrying a non-zero cookie, with the tracked database present, is forwarded only at an
   observation that has reached the cookie; otherwise it ends in a gateway time-out *)
Theorem read_waits q ro obs after :
  r_passthrough q = false -> (r_is_get q && r_health_path q) = false ->
  r_read_method q = true -> r_always_forward q = false -> r_cookie q <> 0 ->
  (proxy_decide q ro true obs after = Forward false None /\
     exists pre p post, obs = pre ++ p :: post /\ r_cookie q <= p /\ forall x, In x pre -> x < r_cookie q) \/
  (proxy_decide q ro true obs after = GatewayTimeout /\ forall x, In x obs -> x < r_cookie q).
Proof.
  intros Hp Hh Hr Ha Hc. unfold proxy_decide. rewrite Hp, Hh, Hr, Ha. cbn [negb andb].
  destruct (N.eqb_spec (r_cookie q) 0); [congruence|]. cbn [negb].
  destruct (poll (r_cookie q) obs) eqn:E.
  - left. split; [reflexivity|]. apply poll_true. assumption.
  - right. split; [reflexivity|]. apply poll_false. exact E.
Qed.

Theorem replica_write_never_forwarded q ro dbp obs after :
  r_passthrough q = false -> ro <> RPrimary ->
  (r_read_method q = false \/ r_always_forward q = true) ->
  (r_is_get q && r_health_path q) = false ->
  proxy_decide q ro dbp obs after = Replay \/ proxy_decide q ro dbp obs after = NoPrimary503.
Proof.
  intros Hp Hro Hw Hh. unfold proxy_decide. rewrite Hp, Hh.
  assert (r_read_method q && negb (r_always_forward q) = false) as ->.
  { destruct Hw as [->| ->]; [reflexivity|]. cbn. apply andb_false_r. }
  destruct ro; [congruence|left; reflexivity|right; reflexivity].
Qed.

Theorem cookie_after_write q dbp obs after :
  r_passthrough q = false -> r_read_method q = false -> r_is_get q = false ->
  proxy_decide q RPrimary dbp obs after = Forward false (if dbp then Some after else None).
Proof.
  intros Hp Hr Hg. unfold proxy_decide. rewrite Hp, Hr, Hg. cbn [andb negb]. destruct dbp; reflexivity.
Qed.

Theorem read_without_cookie_forwarded q ro dbp obs after :
  r_passthrough q = false -> (r_is_get q && r_health_path q) = false -> r_read_method q = true -> r_always_forward q = false ->
  (r_cookie q = 0 \/ dbp = false) -> proxy_decide q ro dbp obs after = Forward false None.
Proof.
  intros Hp Hh Hr Ha Hc. unfold proxy_decide. rewrite Hp, Hh, Hr, Ha. cbn [negb andb].
  destruct (N.eqb_spec (r_cookie q) 0); [reflexivity|]. destruct Hc as [?| ->]; [congruence|reflexivity].
Qed.

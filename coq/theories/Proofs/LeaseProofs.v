(* C08: what the election loop may decide, and how the primary's loop ends. *)
From Coq Require Import NArith List Bool Lia.
Require Import LF.Model.Lease.
Import ListNotations.
Local Open Scope N_scope.

(* [iterate] is a gate on the cluster ids in front of one of two continuations: the election proper ... *)
Definition elect (i : iter_in) : iter_out * list call :=
  match i_handoff i with
  | Some ok => ((if ok then OPrimary else ORetry), [CallClusterID; CallAcquireExisting])
  | None =>
    match i_info1 i with
    | InfoPresent => (OReplica, [CallClusterID; CallPrimaryInfo])
    | InfoErr => (ORetry, [CallClusterID; CallPrimaryInfo])
    | InfoAbsent =>
      if negb (i_candidate i) then (ORetry, [CallClusterID; CallPrimaryInfo])
      else match i_acquire i with
           | AcqOk => (OPrimary, [CallClusterID; CallPrimaryInfo; CallAcquire])
           | AcqErr => (ORetry, [CallClusterID; CallPrimaryInfo; CallAcquire])
           | AcqExists =>
             match i_info2 i with
             | InfoPresent => (OReplica, [CallClusterID; CallPrimaryInfo; CallAcquire; CallPrimaryInfo])
             | _ => (ORetry, [CallClusterID; CallPrimaryInfo; CallAcquire; CallPrimaryInfo])
             end
           end
    end
  end.
(* ... and what is left to a node without a cluster id under an initialised lease *)
Definition follow_only (i : iter_in) : iter_out * list call :=
  match i_info1 i with
  | InfoPresent => (OReplica, [CallClusterID; CallPrimaryInfo])
  | _ => (ORetry, [CallClusterID; CallPrimaryInfo])
  end.

Lemma iterate_cases i :
  iterate i =
  match i_cid i, i_local_cid i with
  | CidErr, _ | CidDifferent, true => (ORetry, [CallClusterID])
  | CidEmpty, _ | CidEqual, true => elect i
  | CidEqual, false | CidDifferent, false => follow_only i
  end.
Proof. destruct i as [cand lc cid ho i1 ac i2]. destruct cid, lc; reflexivity. Qed.

Lemma elect_primary i : fst (elect i) = OPrimary ->
  i_handoff i = Some true \/
  (i_handoff i = None /\ i_candidate i = true /\ i_info1 i = InfoAbsent /\ i_acquire i = AcqOk).
Proof.
  unfold elect. destruct (i_handoff i) as [[|]|], (i_info1 i), (i_candidate i), (i_acquire i), (i_info2 i); cbn;
    intros H; try discriminate H; tauto.
Qed.
Lemma elect_replica i : fst (elect i) = OReplica -> i_info1 i = InfoPresent \/ i_info2 i = InfoPresent.
Proof.
  unfold elect. destruct (i_handoff i) as [[|]|], (i_info1 i), (i_candidate i), (i_acquire i), (i_info2 i); cbn;
    intros H; try discriminate H; tauto.
Qed.
Lemma elect_acquire i : In CallAcquire (snd (elect i)) -> i_candidate i = true.
Proof.
  unfold elect. destruct (i_handoff i) as [[|]|], (i_info1 i), (i_candidate i), (i_acquire i), (i_info2 i); cbn;
    intros H; try reflexivity; repeat (destruct H as [H|H]; [discriminate H|]); destruct H.
Qed.

Lemma follow_only_outcome i : fst (follow_only i) <> OPrimary /\ (fst (follow_only i) = OReplica -> i_info1 i = InfoPresent).
Proof.
  unfold follow_only. destruct (i_info1 i); cbn; (split; [discriminate|]).
  - reflexivity.
  - intros H; discriminate H.
  - intros H; discriminate H.
Qed.
Lemma follow_only_calls i : snd (follow_only i) = [CallClusterID; CallPrimaryInfo].
Proof. unfold follow_only. destruct (i_info1 i); reflexivity. Qed.

Lemma noncandidate_never_acquires i : i_candidate i = false -> ~ In CallAcquire (snd (iterate i)).
Proof.
  intros Hc Hin. rewrite iterate_cases in Hin.
  destruct (i_cid i), (i_local_cid i); try rewrite follow_only_calls in Hin;
    try (apply elect_acquire in Hin; congruence);
    cbn in Hin; repeat (destruct Hin as [Hin|Hin]; [discriminate Hin|]); destruct Hin.
Qed.

(* primary only with a lease - a fresh one (candidate, no primary known, Acquire granted) or a handed one - and only
   past the cluster-id gate *)
Lemma primary_inv i : fst (iterate i) = OPrimary ->
  (i_cid i = CidEmpty \/ (i_cid i = CidEqual /\ i_local_cid i = true)) /\
  (i_handoff i = Some true \/
   (i_handoff i = None /\ i_candidate i = true /\ i_info1 i = InfoAbsent /\ i_acquire i = AcqOk)).
Proof.
  rewrite iterate_cases. intros H.
  destruct (i_cid i), (i_local_cid i); try discriminate H; try (exfalso; exact (proj1 (follow_only_outcome i) H));
    (split; [tauto|apply elect_primary; exact H]).
Qed.

Lemma primary_needs_lease i : fst (iterate i) = OPrimary ->
  i_cid i <> CidErr /\ ~ (i_local_cid i = true /\ i_cid i = CidDifferent) /\
  (i_handoff i = Some true \/
   (i_handoff i = None /\ i_candidate i = true /\ i_info1 i = InfoAbsent /\ i_acquire i = AcqOk)).
Proof.
  intros H. destruct (primary_inv i H) as [Hc Hl]. split; [|split; [|exact Hl]].
  - destruct Hc as [E|[E _]]; rewrite E; discriminate.
  - intros [_ E]. destruct Hc as [E'|[E' _]]; congruence.
Qed.
Lemma noncandidate_primary_only_by_handoff i : i_candidate i = false -> fst (iterate i) = OPrimary -> i_handoff i = Some true.
Proof. intros Hc H. destruct (primary_inv i H) as [_ [E|[_ [E _]]]]; congruence. Qed.

Lemma foreign_cluster_refused i : i_local_cid i = true -> i_cid i = CidDifferent -> iterate i = (ORetry, [CallClusterID]).
Proof. intros Hl Hc. rewrite iterate_cases, Hl, Hc. reflexivity. Qed.
Lemma uninitialised_node_never_leads i : i_local_cid i = false -> leaser_has_cid i = true -> fst (iterate i) <> OPrimary.
Proof.
  unfold leaser_has_cid. intros Hl Hc H. destruct (primary_inv i H) as [[E|[_ E]] _]; [rewrite E in Hc|]; congruence.
Qed.

Lemma replica_needs_primary i : fst (iterate i) = OReplica ->
  i_cid i <> CidErr /\ ~ (i_local_cid i = true /\ i_cid i = CidDifferent) /\ (i_info1 i = InfoPresent \/ i_info2 i = InfoPresent).
Proof.
  rewrite iterate_cases. intros H.
  destruct (i_cid i), (i_local_cid i); try discriminate H;
    (split; [discriminate|split; [intros [? ?]; discriminate|]]);
    try (apply elect_replica; exact H); left; exact (proj2 (follow_only_outcome i) H).
Qed.

(* the next renewal is due within the TTL of the last successful one *)
Definition PInv (ttl : N) (s : pstate) : Prop := p_since s + p_wait s <= ttl.

Lemma half_le ttl : ttl / 2 <= ttl.
Proof. apply N.div_le_upper_bound; lia. Qed.

Definition loop_facts (ttl : N) (evs : list pevent) (res : pexit * bool * N) : Prop :=
  let '(x, closed, stop) := res in
  (closed = true <-> (x <> XHandedOff /\ x <> XStillPrimary)) /\
  (x = XHandedOff -> In (PHandoff true true) evs) /\
  (x = XExpired -> stop <= ttl) /\
  (x = XExpired -> ~ In PRenewExpired evs -> ~ In PHandoffLeaseGone evs -> stop = ttl).

Lemma loop_facts_cons ttl e r res : loop_facts ttl r res -> loop_facts ttl (e :: r) res.
Proof.
  destruct res as [[x closed] stop]. intros [A [B [C D]]]. split; [exact A|]. split; [|split; [exact C|]].
  - intros Hx. right. exact (B Hx).
  - intros Hx Hn Hg. apply (D Hx); intros Hin; [apply Hn|apply Hg]; right; exact Hin.
Qed.
(* an exit that destroys the lease *)
Lemma loop_facts_exit ttl evs x stop : x <> XHandedOff -> x <> XStillPrimary ->
  (x = XExpired -> stop <= ttl /\ (~ In PRenewExpired evs -> ~ In PHandoffLeaseGone evs -> stop = ttl)) ->
  loop_facts ttl evs (x, true, stop).
Proof. intros H1 H2 H3. split; [tauto|]. split; [intros Hx; contradiction|]. split; intros Hx; apply (H3 Hx). Qed.

Lemma primary_loop_facts ttl evs : forall s, PInv ttl s -> loop_facts ttl evs (primary_loop ttl s evs).
Proof.
  unfold PInv. induction evs as [|e r IH]; intros s HI; cbn [primary_loop].
  - repeat split; try discriminate; intros H; try discriminate H; destruct H; congruence.
  - destruct e as [| | | |c l| |].
    + apply loop_facts_cons, IH. cbn. apply half_le.
    + apply loop_facts_exit; try discriminate. intros _. split; [exact HI|]. intros Hn _. exfalso. apply Hn. left. reflexivity.
    + unfold retry_ms. destruct (N.ltb_spec ttl (p_since s + p_wait s + 1000)) as [Hg|Hg].
      * apply loop_facts_exit; try discriminate. intros _. split; lia.
      * apply loop_facts_cons, IH. cbn. exact Hg.
    + apply loop_facts_exit; discriminate.
    + destruct (c && l) eqn:E.
      * apply andb_true_iff in E. destruct E as [-> ->].
        repeat split; try discriminate; intros H; try discriminate H; try (left; reflexivity). destruct H; congruence.
      * apply loop_facts_cons, IH, HI.
    + apply loop_facts_exit; try discriminate. intros _. split; [lia|]. intros _ Hn. exfalso. apply Hn. left. reflexivity.
    + apply loop_facts_exit; discriminate.
Qed.

Theorem primary_run_facts ttl evs :
  let '(x, closed, stop) := primary_run ttl evs in
  (closed = true <-> (x <> XHandedOff /\ x <> XStillPrimary)) /\
  (x = XHandedOff -> In (PHandoff true true) evs) /\
  (x = XExpired -> stop <= ttl) /\
  (x = XExpired -> ~ In PRenewExpired evs -> ~ In PHandoffLeaseGone evs -> stop = ttl).
Proof. apply (primary_loop_facts ttl evs). unfold PInv. cbn. apply half_le. Qed.
Lemma handoff_lease_gone_ends_role ttl s r : primary_loop ttl s (PHandoffLeaseGone :: r) = (XExpired, true, p_since s).
Proof. reflexivity. Qed.
Lemma handoff_failed_keeps_deadline ttl s c l r : c && l = false -> primary_loop ttl s (PHandoff c l :: r) = primary_loop ttl s r.
Proof. intros H. cbn [primary_loop]. rewrite H. reflexivity. Qed.
Lemma expired_renewal_ends_role ttl s r : primary_loop ttl s (PRenewExpired :: r) = (XExpired, true, p_since s + p_wait s).
Proof. reflexivity. Qed.
Lemma handoff_unconnected_ignored ttl s l r : primary_loop ttl s (PHandoff false l :: r) = primary_loop ttl s r.
Proof. apply handoff_failed_keeps_deadline. reflexivity. Qed.

Lemma attach_foreign_refused a b : a <> b -> attach (Some a) (Some b) = (Some a, false).
Proof. intros H. unfold attach. destruct (N.eqb_spec a b); [contradiction|reflexivity]. Qed.
Lemma attach_keeps_id a s : fst (attach (Some a) s) = Some a.
Proof. destruct s; reflexivity. Qed.
Lemma attach_follows_only_own l s c : attach l s = (Some c, true) -> s = Some c /\ (l = None \/ l = Some c).
Proof.
  unfold attach. destruct l as [a|], s as [b|]; cbn; intros H; inversion H; subst; try discriminate.
  - apply N.eqb_eq in H2. subst. tauto.
  - tauto.
Qed.

Lemma post_acquire_own_cluster local leaser c : post_acquire local leaser = (true, Some c) ->
  (leaser = None /\ (local = Some c \/ (local = None /\ c = 0))) \/ (leaser = Some c /\ local = Some c).
Proof.
  unfold post_acquire. destruct leaser as [b|]; destruct local as [a|]; cbn; intros H; inversion H; subst; try discriminate; auto.
  right. match goal with E : (_ =? _) = true |- _ => apply N.eqb_eq in E; subst end. auto.
Qed.
Lemma post_acquire_foreign_refused a b : a <> b -> fst (post_acquire (Some a) (Some b)) = false.
Proof. intros H. cbn. destruct (N.eqb_spec a b); [contradiction|reflexivity]. Qed.


(* Effect of ApplyLTXNoLock on the database file; import / export exactness (C16). *)
From Coq Require Import NArith List Lia Bool.
Require Import LF.Model.PageDB LF.Proofs.XorLib LF.Proofs.ChecksumProofs LF.Proofs.CaptureProofs
  LF.Proofs.WalHistoryProofs LF.Proofs.ChainProofs.
Import ListNotations.
Local Open Scope N_scope.

(* unlike CaptureProofs.set_file_other this holds for a write that leaves a hole below it *)
Lemma set_file_other' : forall i l j v, i <> j -> (j < length l)%nat -> nth_error (set_file l i v) j = nth_error l j.
Proof.
  induction i as [|i IH]; intros l j v Hij Hj; destruct l as [|x l]; cbn in Hj; try lia.
  - destruct j; [congruence|reflexivity].
  - destruct j; cbn; [reflexivity|]. apply IH; lia.
Qed.
Lemma set_file_length : forall i l v, (length l <= length (set_file l i v))%nat.
Proof.
  induction i as [|i IH]; intros l v; destruct l as [|x l]; cbn [set_file length]; try lia.
  specialize (IH l v). lia.
Qed.

Lemma write_page_file' s p q x : 1 <= p -> 1 <= x ->
  (x = p -> file_pg (write_db_page s p q) x = Some q) /\
  (x <> p -> x <= lenN (dbfile s) -> file_pg (write_db_page s p q) x = file_pg s x) /\
  lenN (dbfile s) <= lenN (dbfile (write_db_page s p q)).
Proof.
  intros Hp Hx. unfold write_db_page. unfold file_pg. cbn [dbfile set_page_chk with_file]. unfold lenN. repeat split.
  - intros ->. apply set_file_same.
  - intros Hne Hle. apply set_file_other'; lia.
  - pose proof (set_file_length (N.to_nat (p - 1)) (dbfile s) q). lia.
Qed.

Lemma fold_write_file : forall pages s,
  (forall kv, In kv pages -> 1 <= fst kv) -> NoDup (map fst pages) ->
  let s' := fold_left (fun a kv => write_db_page a (fst kv) (snd kv)) pages s in
  (forall p q, In (p, q) pages -> file_pg s' p = Some q) /\
  (forall x, 1 <= x -> ~ In x (map fst pages) -> x <= lenN (dbfile s) -> file_pg s' x = file_pg s x) /\
  lenN (dbfile s) <= lenN (dbfile s').
Proof.
  induction pages as [|[p0 q0] r IH]; intros s Hk Hnd; cbn [fold_left].
  - split; [intros p q []|]. split; [intros; reflexivity|lia].
  - cbn [map fst] in Hnd. inversion Hnd as [|? ? Hnotin Hnd']; subst.
    assert (1 <= p0) as Hp0 by (apply (Hk (p0, q0)); left; reflexivity).
    destruct (IH (write_db_page s p0 q0) (fun kv H => Hk kv (or_intror H)) Hnd') as [A [B C]].
    destruct (write_page_file' s p0 q0 p0 Hp0 Hp0) as [W1 [_ W3]]. specialize (W1 eq_refl).
    (* the page just written exists, so the later writes leave it alone *)
    assert (p0 <= lenN (dbfile (write_db_page s p0 q0))) as Hlen.
    { unfold file_pg, lenN in *. assert (nth_error (dbfile (write_db_page s p0 q0)) (N.to_nat (p0 - 1)) <> None) as Hn by congruence.
      apply nth_error_Some in Hn. lia. }
    cbn [fst snd]. split; [|split].
    + intros p q [E|Hin]; [inversion E; subst|apply A; assumption]. rewrite B; assumption.
    + intros x Hx Hnin Hle. cbn [map fst In] in Hnin.
      destruct (write_page_file' s p0 q0 x Hp0 Hx) as [_ [W2 _]].
      rewrite B; [apply W2; [intuition congruence|assumption]|assumption|intuition|lia].
    + lia.
Qed.

Lemma nth_error_firstn_lt {A} : forall n (l : list A) i, (i < n)%nat -> nth_error (firstn n l) i = nth_error l i.
Proof.
  induction n as [|n IH]; intros l i Hi; [lia|]. destruct l as [|x l]; [destruct i; reflexivity|].
  destruct i; cbn; [reflexivity|]. apply IH. lia.
Qed.

Lemma file_truncate_db s n x : 1 <= x <= n -> file_pg (truncate_db s n) x = file_pg s x.
Proof.
  intros Hx. unfold truncate_db, reset_after, file_pg. rewrite dbfile_clear_from. cbn [dbfile with_file].
  apply nth_error_firstn_lt. lia.
Qed.

Lemma file_pg_apply_pre s f x : 1 <= x <= l_commit f ->
  file_pg (apply_pre s f) x = file_pg (fold_left (fun a kv => write_db_page a (fst kv) (snd kv)) (l_pages f) s) x.
Proof.
  intros Hx. unfold apply_pre. destruct (N.eqb_spec (l_commit f) 0); [lia|]. apply (file_truncate_db _ _ x Hx).
Qed.
Theorem apply_file s f fatal s' :
  op_apply s f fatal = (Done, s') -> 0 < l_commit f ->
  (forall kv, In kv (l_pages f) -> 1 <= fst kv) -> NoDup (map fst (l_pages f)) ->
  (forall p q, In (p, q) (l_pages f) -> p <= l_commit f -> file_pg s' p = Some q) /\
  (forall x, 1 <= x <= l_commit f -> ~ In x (map fst (l_pages f)) -> x <= lenN (dbfile s) -> file_pg s' x = file_pg s x) /\
  wal_latest s' = wal_latest s.
Proof.
  intros H Hc Hk Hnd. destruct (apply_keeps s f fatal s' H) as [_ [_ [_ [Ewl _]]]].
  destruct (op_apply_inv s f fatal s' H) as [s4 [Ec ->]]. destruct (checksum_result _ _ _ _ _ Ec) as [_ [Ef _]].
  destruct (fold_write_file (l_pages f) s Hk Hnd) as [A [B _]].
  assert (Hf : forall x, file_pg (with_pos s4 (l_commit f) (wal_mode (apply_pre s f)) (l_max f) (l_post f) (ltxdir s4)) x
                        = file_pg (apply_pre s f) x) by (intros x; unfold file_pg; cbn [dbfile with_pos]; rewrite Ef; reflexivity).
  split; [|split; [|exact Ewl]].
  - intros p q Hin Hle. rewrite Hf, file_pg_apply_pre; [apply A; assumption|]. split; [apply (Hk (p, q) Hin)|assumption].
  - intros x Hx Hnin Hlen. rewrite Hf, file_pg_apply_pre by assumption. apply B; [lia|assumption|assumption].
Qed.

Lemma import_file_pages s pages commit : (forall kv, In kv pages -> 1 <= fst kv) -> NoDup (map fst pages) ->
  (forall kv, In kv (l_pages (import_file s pages commit)) -> 1 <= fst kv) /\
  NoDup (map fst (l_pages (import_file s pages commit))).
Proof.
  intros Hk Hnd. split.
  - intros kv Hin. apply filter_In in Hin. apply Hk. tauto.
  - apply (keys_filter _ pages Hnd).
Qed.

(* C16: a successful import is one new transaction whose file holds the image (lock page skipped),
   chained to the previous position; afterwards the database file holds exactly the imported pages
   and, the WAL bookkeeping being empty, an export reads exactly those *)
Theorem import_exact s pages commit s' :
  op_import s pages commit true = (Done, s') -> 0 < commit ->
  (forall kv, In kv pages -> 1 <= fst kv) -> NoDup (map fst pages) ->
  exists f, ltxdir s' = ltxdir s ++ [f] /\ l_min f = txid s + 1 /\ l_max f = txid s + 1 /\ l_pre f = chk s /\ l_commit f = commit /\
    txid s' = txid s + 1 /\ chk s' = l_post f /\ pageN s' = commit /\
    (forall p q, In (p, q) pages -> p <> lockpg s -> p <= commit -> read_page s' p = Some q).
Proof.
  intros H Hc Hk Hnd. destruct (op_import_inv s pages commit true s' H) as [_ [_ Ha]].
  destruct (apply_done _ _ true s' Ha) as [Et [Ec [Ep Ed]]].
  destruct (import_file_pages s pages commit Hk Hnd) as [Hk' Hnd'].
  destruct (apply_file _ _ true s' Ha Hc Hk' Hnd') as [A [_ Ewl]].
  exists (import_file s pages commit). repeat split; try assumption; try reflexivity.
  intros p q Hin Hnl Hle. unfold read_page. rewrite Ewl. cbn [wal_latest import_start with_dirty with_wal alookup].
  apply A; [|assumption]. apply filter_In. split; [assumption|]. cbn [fst]. apply negb_true_iff, N.eqb_neq. assumption.
Qed.

Theorem import_failure_atomic s pages commit : op_import s pages commit false = (Failed, s).
Proof. unfold op_import. destruct (writeable s); reflexivity. Qed.
Theorem import_on_replica_refused s pages commit ok : writeable s = false -> op_import s pages commit ok = (Failed, s).
Proof. intros H. unfold op_import. rewrite H. reflexivity. Qed.

Lemma export_pages_spec s : forall n p, export_pages s p n = map (read_page s) (seqN p n).
Proof. induction n as [|n IH]; intros p; cbn [export_pages seqN map]; [reflexivity|]. rewrite IH. reflexivity. Qed.
Theorem export_is_image s :
  op_export s = (map (read_page s) (seqN 1 (N.to_nat (pageN s))), (txid s, chk s)).
Proof. unfold op_export. rewrite export_pages_spec. reflexivity. Qed.

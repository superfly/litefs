(* C17: the WAL and journal readers against SQLite's validity rules. *)
From Coq Require Import ZArith List Lia Bool.
Require Import LF.Model.WalJournal.
Import ListNotations.
Local Open Scope N_scope.

Lemma skipn_add {A} : forall m n (l : list A), skipn n (skipn m l) = skipn (m + n) l.
Proof.
  induction m as [|m IH]; intros n l; [reflexivity|]. destruct l as [|x l]; [rewrite !skipn_nil; reflexivity|].
  cbn [skipn Nat.add]. apply IH.
Qed.

Lemma app_eq_len {A} : forall (a a' b b' : list A), length a = length a' -> a ++ b = a' ++ b' -> a = a' /\ b = b'.
Proof.
  induction a as [|x a IH]; intros a' b b' HL E; destruct a' as [|y a']; cbn in HL; try lia; [auto|].
  cbn in E. inversion E; subst. destruct (IH a' b b' ltac:(lia) H1) as [-> ->]. auto.
Qed.

Lemma sub_some b off n r : sub b off n = Some r -> skipn off b = r ++ skipn (off + n) b /\ length r = n.
Proof.
  unfold sub. destruct (Nat.eqb_spec (length (firstn n (skipn off b))) n) as [E|E]; [|discriminate].
  intros H; inversion H; subst r. split; [|assumption].
  rewrite <- (firstn_skipn n (skipn off b)) at 1. f_equal. apply skipn_add.
Qed.
Lemma sub_of_app b off r tl : skipn off b = r ++ tl -> sub b off (length r) = Some r.
Proof.
  intros H. unfold sub. rewrite H, firstn_app, Nat.sub_diag, firstn_all. cbn [firstn]. rewrite app_nil_r, Nat.eqb_refl. reflexivity.
Qed.
Lemma sub_none_short b off n : sub b off n = None -> forall r tl, skipn off b = r ++ tl -> length r <> n.
Proof.
  intros H r tl E Hl. subst n. rewrite (sub_of_app b off r tl E) in H. discriminate.
Qed.

(* one frame at [off]: the reader's test = the spec's frame_bytes_ok *)
Definition frame_test (h : walhdr) (fh data : list N) (c1 c2 : N) : bool :=
  (u32 fh 8 =? wh_salt1 h) && (u32 fh 12 =? wh_salt2 h) && negb (u32 fh 0 =? 0) &&
  (let '(a1, a2) := wal_checksum (wh_be h) c1 c2 (firstn 8 fh) in
   let '(d1, d2) := wal_checksum (wh_be h) a1 a2 data in (d1 =? u32 fh 16) && (d2 =? u32 fh 20)).

Lemma frame_test_ok h fh data c1 c2 :
  length fh = 24%nat -> length data = N.to_nat (wh_ps h) ->
  (frame_test h fh data c1 c2 = true <-> frame_bytes_ok h fh data c1 c2).
Proof.
  intros L1 L2. unfold frame_test, frame_bytes_ok.
  destruct (wal_checksum (wh_be h) c1 c2 (firstn 8 fh)) as [a1 a2].
  destruct (wal_checksum (wh_be h) a1 a2 data) as [d1 d2].
  rewrite !andb_true_iff, negb_true_iff, !N.eqb_eq, N.eqb_neq. tauto.
Qed.

(* the reader and buildTxFrameOffsets run the same tests in the same order *)
Lemma frame_tests {A} h fh data c1 c2 (bad : A) (good : N -> N -> A) :
  (if negb ((u32 fh 8 =? wh_salt1 h) && (u32 fh 12 =? wh_salt2 h)) then bad
   else if u32 fh 0 =? 0 then bad
   else let '(a1, a2) := wal_checksum (wh_be h) c1 c2 (firstn 8 fh) in
        let '(d1, d2) := wal_checksum (wh_be h) a1 a2 data in
        if negb ((d1 =? u32 fh 16) && (d2 =? u32 fh 20)) then bad else good d1 d2)
  = if frame_test h fh data c1 c2 then good (fst (next_ck h fh data c1 c2)) (snd (next_ck h fh data c1 c2)) else bad.
Proof.
  unfold frame_test, next_ck. destruct (wal_checksum (wh_be h) c1 c2 (firstn 8 fh)) as [a1 a2].
  destruct (wal_checksum (wh_be h) a1 a2 data) as [d1 d2]. cbn [fst snd].
  destruct (_ && (u32 fh 12 =? _)); [|reflexivity]. destruct (u32 fh 0 =? 0); [reflexivity|]. destruct (_ && _); reflexivity.
Qed.

Lemma frame_split_unique (fh data tl fh' data' tl' : list N) :
  length fh = length fh' -> length data = length data' ->
  fh ++ data ++ tl = fh' ++ data' ++ tl' -> fh = fh' /\ data = data' /\ tl = tl'.
Proof.
  intros L1 L2 E. destruct (app_eq_len fh fh' _ _ L1 E) as [<- E'].
  destruct (app_eq_len data data' _ _ L2 E') as [<- E'']. auto.
Qed.

Lemma wal_frames_spec h b : forall fuel off c1 c2,
  (length b < fuel + off)%nat ->
  valid_prefix h (skipn off b) c1 c2 (wal_frames fuel h b off c1 c2).
Proof.
  induction fuel as [|fuel IH]; intros off c1 c2 Hf; cbn [wal_frames].
  - constructor. intros fh data tl E [L1 _]. rewrite skipn_all2 in E by lia.
    destruct fh; [cbn in L1; lia|discriminate].
  - set (ps := N.to_nat (wh_ps h)).
    destruct (sub b off 24) as [fh|] eqn:E1.
    2:{ constructor. intros fh data tl E [L1 _]. eapply (sub_none_short b off 24 E1); eassumption. }
    destruct (sub_some _ _ _ _ E1) as [S1 L1].
    destruct (sub b (off + 24) ps) as [data|] eqn:E2.
    2:{ constructor. intros fh' data' tl E [L1' [L2' _]].
        rewrite S1 in E. destruct (app_eq_len fh fh' _ _ ltac:(lia) E) as [<- E'].
        eapply (sub_none_short b (off + 24) ps E2); [exact E'|exact L2']. }
    destruct (sub_some _ _ _ _ E2) as [S2 L2].
    assert (Hsk : skipn off b = fh ++ data ++ skipn (off + 24 + ps) b) by (rewrite S1, S2; reflexivity).
    rewrite frame_tests. pose proof (frame_test_ok h fh data c1 c2 L1 L2) as Hiff.
    destruct (frame_test h fh data c1 c2).
    + rewrite Hsk. apply VP_frame; [apply Hiff; reflexivity|]. apply IH. lia.
    + constructor. intros fh' data' tl E Hok'. rewrite Hsk in E.
      pose proof Hok' as [L1' [L2' _]].
      destruct (frame_split_unique fh data _ fh' data' tl ltac:(lia) ltac:(lia) E) as [<- [<- _]].
      apply Hiff in Hok'. discriminate Hok'.
Qed.

Lemma valid_prefix_unique h rest c1 c2 fs : valid_prefix h rest c1 c2 fs ->
  forall fs', valid_prefix h rest c1 c2 fs' -> fs = fs'.
Proof.
  induction 1 as [rest c1 c2 Hno|fh data tl c1 c2 fs Hok Hv IH]; intros fs' H'.
  - inversion H' as [|fh' data' tl' ? ? fs2 Hok' Hv']; subst; [reflexivity|].
    exfalso. eapply Hno; [reflexivity|eassumption].
  - inversion H' as [? ? ? Hno|fh' data' tl' ? ? fs2 Hok' Hv' Eq]; subst.
    + exfalso. eapply Hno; [reflexivity|eassumption].
    + pose proof Hok as [L1 [L2 _]]. pose proof Hok' as [L1' [L2' _]].
      destruct (frame_split_unique fh' data' tl' fh data tl ltac:(lia) ltac:(lia) Eq) as [-> [-> ->]].
      f_equal. apply IH. assumption.
Qed.

Theorem wal_reader_is_longest_valid_prefix b h fs :
  wal_read b = (HOk h, fs) ->
  valid_prefix h (skipn 32 b) (wh_ck1 h) (wh_ck2 h) fs /\
  (forall fs', valid_prefix h (skipn 32 b) (wh_ck1 h) (wh_ck2 h) fs' -> fs' = fs).
Proof.
  unfold wal_read. destruct (wal_read_header b) as [h'| |] eqn:E; intros H; inversion H; subst.
  pose proof (wal_frames_spec h b (S (length b)) 32 (wh_ck1 h) (wh_ck2 h) ltac:(lia)) as HV.
  split; [exact HV|]. intros fs' H'. symmetry. eapply valid_prefix_unique; eassumption.
Qed.

(* buildTxFrameOffsets reads header and page in one piece: the piece, cut at 24, is the split into header, page and
   rest that [valid_prefix] speaks of - and if the piece is not there, no such split is *)
Lemma sub_frame b off ps :
  match sub b off (24 + ps) with
  | Some fr => length (firstn 24 fr) = 24%nat /\ length (skipn 24 fr) = ps /\
               skipn off b = firstn 24 fr ++ skipn 24 fr ++ skipn (off + 24 + ps) b
  | None => forall fh data tl, skipn off b = fh ++ data ++ tl -> length fh = 24%nat -> length data <> ps
  end.
Proof.
  destruct (sub b off (24 + ps)) as [fr|] eqn:E.
  - destruct (sub_some _ _ _ _ E) as [S1 L1]. rewrite firstn_length, skipn_length. split; [lia|]. split; [lia|].
    rewrite S1, app_assoc, firstn_skipn, Nat.add_assoc. reflexivity.
  - intros fh data tl Eq L1 L2. apply (sub_none_short b off (24 + ps) E (fh ++ data) tl); [rewrite <- app_assoc; exact Eq|].
    rewrite app_length. lia.
Qed.

Lemma build_tx_spec h b : forall fuel off c1 c2 acc fs commit endoff d1 d2,
  build_tx fuel h b off c1 c2 acc = Some (fs, commit, endoff, d1, d2) ->
  exists tx, fs = acc ++ tx /\ tx <> [] /\
    (exists rest, valid_prefix h (skipn endoff b) d1 d2 rest /\
                  valid_prefix h (skipn off b) c1 c2 (tx ++ rest)) /\
    f_commit (last tx {| f_pgno := 0; f_commit := 0; f_data := [] |}) = commit /\ commit <> 0 /\
    Forall (fun f => f_commit f = 0) (removelast tx).
Proof.
  induction fuel as [|fuel IH]; intros off c1 c2 acc fs commit endoff d1 d2 H; cbn [build_tx] in H; [discriminate|].
  set (ps := N.to_nat (wh_ps h)) in *.
  pose proof (sub_frame b off ps) as Hfr. destruct (sub b off (24 + ps)) as [fr|]; [|discriminate].
  set (fh := firstn 24 fr) in *. set (data := skipn 24 fr) in *. destruct Hfr as [Lfh [Ld Hsk]].
  rewrite frame_tests in H. destruct (frame_test h fh data c1 c2) eqn:Ht; [|discriminate].
  apply (frame_test_ok h fh data c1 c2 Lfh Ld) in Ht.
  set (e1 := fst (next_ck h fh data c1 c2)) in *. set (e2 := snd (next_ck h fh data c1 c2)) in *.
  set (f := {| f_pgno := u32 fh 0; f_commit := u32 fh 4; f_data := data |}) in *.
  assert (Hstep : forall rest, valid_prefix h (skipn (off + 24 + ps) b) e1 e2 rest -> valid_prefix h (skipn off b) c1 c2 (f :: rest)).
  { intros rest Hr. rewrite Hsk. apply VP_frame; assumption. }
  cbn [f_commit f] in H. destruct (N.eqb_spec (u32 fh 4) 0) as [Ez|Enz]; cbn [negb] in H.
  - destruct (IH _ _ _ _ _ _ _ _ _ H) as [tx [Efs [Hne [[rest [Hr1 Hr2]] [Hl [Hcn Hall]]]]]].
    exists (f :: tx). split; [rewrite Efs, <- app_assoc; reflexivity|]. split; [discriminate|]. split.
    + exists rest. split; [assumption|]. cbn [app]. apply Hstep. assumption.
    + split; [destruct tx; [congruence|exact Hl]|]. split; [assumption|].
      destruct tx as [|t tx']; [congruence|]. cbn [removelast]. constructor; [exact Ez|exact Hall].
  - inversion H; subst. exists [f]. split; [reflexivity|]. split; [discriminate|]. split.
    + pose proof (wal_frames_spec h b (S (length b)) (off + 24 + ps) e1 e2 ltac:(lia)) as HV.
      exists (wal_frames (S (length b)) h b (off + 24 + ps) e1 e2). split; [exact HV|]. cbn [app]. apply Hstep. exact HV.
    + cbn. split; [reflexivity|]. split; [assumption|constructor].
Qed.

Lemma build_tx_none h b : forall fuel off c1 c2 acc,
  (length b < fuel + off)%nat ->
  build_tx fuel h b off c1 c2 acc = None ->
  forall fs, valid_prefix h (skipn off b) c1 c2 fs -> Forall (fun f => f_commit f = 0) fs.
Proof.
  induction fuel as [|fuel IH]; intros off c1 c2 acc Hf H fs Hv.
  - inversion Hv as [|fh data tl ? ? fs2 Hok Hv' Eq]; subst; [constructor|].
    destruct Hok as [L1 _]. rewrite skipn_all2 in Eq by lia. destruct fh; [cbn in L1; lia|discriminate].
  - cbn [build_tx] in H. set (ps := N.to_nat (wh_ps h)) in *.
    inversion Hv as [|fh data tl ? ? fs2 Hok Hv' Eq]; subst; [constructor|].
    pose proof Hok as [L1 [L2 _]]. fold ps in L2.
    pose proof (sub_frame b off ps) as Hfr. destruct (sub b off (24 + ps)) as [fr|]; [|exact (False_ind _ (Hfr fh data tl (eq_sym Eq) L1 L2))].
    destruct Hfr as [Lfh [Ld Hsk]]. rewrite <- Eq in Hsk.
    destruct (frame_split_unique fh data tl (firstn 24 fr) (skipn 24 fr) _ ltac:(lia) ltac:(lia) Hsk) as [E1 [E2 Etl]].
    rewrite <- E1, <- E2 in H.
    rewrite frame_tests, (proj2 (frame_test_ok h fh data c1 c2 L1 L2) Hok) in H. cbn [f_commit] in H.
    destruct (N.eqb_spec (u32 fh 4) 0) as [Ez|Enz]; cbn [negb] in H; [|discriminate].
    constructor; [exact Ez|].
    rewrite Etl in Hv'. eapply IH; [|exact H|exact Hv']. lia.
Qed.

Lemma playback_inside lock commit recs pg d :
  In (pg, d) (playback lock commit recs) -> 1 <= pg <= commit /\ pg <> lock /\ In (pg, d) recs.
Proof.
  induction recs as [|[p0 d0] r IH]; cbn [playback]; [intros []|].
  destruct (N.eqb_spec p0 0) as [E0|E0]; cbn [orb]; [intros []|].
  destruct (N.eqb_spec p0 lock) as [El|El]; [intros []|].
  destruct (N.ltb_spec commit p0) as [Hlt|Hge].
  - intros H. destruct (IH H) as [A [B C]]. split; [assumption|]. split; [assumption|right; assumption].
  - intros [E|H].
    + inversion E; subst. split; [lia|]. split; [assumption|left; reflexivity].
    + destruct (IH H) as [A [B C]]. split; [assumption|]. split; [assumption|right; assumption].
Qed.

Lemma playback_id lock commit recs :
  (forall pg d, In (pg, d) recs -> 1 <= pg <= commit /\ pg <> lock) -> playback lock commit recs = recs.
Proof.
  induction recs as [|[p0 d0] r IH]; intros H; cbn [playback]; [reflexivity|].
  destruct (H p0 d0 (or_introl eq_refl)) as [[H1 H2] H3].
  destruct (N.eqb_spec p0 0); [lia|]. destruct (N.eqb_spec p0 lock); [congruence|]. cbn [orb].
  destruct (N.ltb_spec commit p0); [lia|]. f_equal. apply IH. intros pg d Hin. apply (H pg d). right; assumption.
Qed.

Definition write_all (recs : list (N * list N)) (file : N -> list N) : N -> list N :=
  fold_left (fun f kv => fun p => if p =? fst kv then snd kv else f p) recs file.
Lemma write_all_spec recs : forall file p,
  write_all recs file p = match find (fun kv => p =? fst kv) (rev recs) with Some kv => snd kv | None => file p end.
Proof.
  unfold write_all. induction recs as [|kv r IH] using rev_ind; intros file p; [reflexivity|].
  rewrite fold_left_app, rev_app_distr. cbn [fold_left rev app find].
  destruct (p =? fst kv); [reflexivity|]. apply IH.
Qed.
Theorem rollback_restores (pre cur : N -> list N) recs :
  (forall pg d, In (pg, d) recs -> d = pre pg) ->
  (forall p, (forall d, ~ In (p, d) recs) -> cur p = pre p) ->
  forall p, write_all recs cur p = pre p.
Proof.
  intros Hpre Hcur p. rewrite write_all_spec.
  destruct (find (fun kv => p =? fst kv) (rev recs)) as [[pg d]|] eqn:E.
  - apply find_some in E. destruct E as [Hin Hb]. apply N.eqb_eq in Hb. cbn [fst snd] in *. subst pg.
    apply in_rev in Hin. apply Hpre. assumption.
  - apply Hcur. intros d Hin. apply in_rev in Hin.
    pose proof (find_none _ _ E (p, d) Hin) as Hn. cbn [fst] in Hn. rewrite N.eqb_refl in Hn. discriminate.
Qed.

Local Open Scope Z_scope.
Definition JInv (r : jr) : Prop := 0 <= j_off r /\ (j_off r = 0 \/ 32 <= j_sector r).

Lemma valid_size_min v m : valid_size v m = true -> m <= v.
Proof. unfold valid_size. rewrite !andb_true_iff, !Z.leb_le. tauto. Qed.

Lemma align_ge x s : 1 <= x -> 0 < s -> x <= ((x - 1) / s + 1) * s.
Proof. intros Hx Hs. pose proof (Z.div_mod (x - 1) s ltac:(lia)). pose proof (Z.mod_pos_bound (x - 1) s Hs). nia. Qed.

Lemma jnext_ok_progress b r r' : JInv r -> jnext b r = JNOk r' ->
  JInv r' /\ j_off r + 32 <= j_off r' /\ j_off r' <= Z.of_nat (length b) /\ 32 <= j_sector r'.
Proof.
  intros [H0 Hsec] H. unfold jnext in H.
  set (size := Z.of_nat (length b)) in *.
  set (off := if j_off r =? 0 then 0 else ((j_off r - 1) / j_sector r + 1) * j_sector r) in *.
  assert (Hoff : j_off r <= off /\ (off = 0 <-> j_off r = 0)).
  { unfold off. destruct (Z.eqb_spec (j_off r) 0) as [E|E]; [lia|].
    destruct Hsec as [?|Hsec]; [lia|]. pose proof (align_ge (j_off r) (j_sector r) ltac:(lia) ltac:(lia)). lia. }
  cbn [j_off j_valid j_frameN j_nonce j_commit j_sector j_ps] in H.
  destruct (sub b (Z.to_nat off) 28) as [hdr|]; [|discriminate].
  destruct (is_zero hdr); [discriminate|].
  destruct ((0 <? off) && negb (bytes_eq (firstn 8 hdr) journal_magic)); [discriminate|].
  destruct (Z.eqb_spec off 0) as [E0|E0].
  - destruct (valid_size (Z.of_N (u32 hdr 20)) 32 && valid_size (if Z.of_N (u32 hdr 24) =? 0 then j_ps r else Z.of_N (u32 hdr 24)) 512) eqn:Hv; cbn [negb] in H; [|discriminate].
    apply andb_true_iff in Hv. destruct Hv as [Hv1 _]. apply valid_size_min in Hv1.
    match type of H with context [if negb (?a =? ?c) then _ else _] => destruct (negb (a =? c)); [discriminate|] end.
    match type of H with context [if ?c then JNEOF _ else _] => destruct c eqn:Hlt; [discriminate|] end.
    inversion H; subst r'. cbn [j_off j_sector]. apply Z.ltb_ge in Hlt. unfold JInv. cbn [j_off j_sector].
    set (sec := Z.of_N (u32 hdr 20)) in *. clearbody sec size off. clear -Hlt Hv1 Hoff H0 E0. lia.
  - destruct Hsec as [Hz|Hsec]; [exfalso; apply E0; apply (proj2 (proj2 Hoff)); exact Hz|].
    match type of H with context [if ?c then JNEOF _ else _] => destruct c eqn:Hlt; [discriminate|] end.
    inversion H; subst r'. cbn [j_off j_sector]. apply Z.ltb_ge in Hlt. unfold JInv. cbn [j_off j_sector].
    clearbody size off. clear -Hlt Hsec Hoff H0 E0. lia.
Qed.

Lemma jread_progress b r pg d r' : jread b r = Some (pg, d, r') -> j_off r <= j_off r' /\ j_sector r' = j_sector r.
Proof.
  unfold jread. destruct (j_frameN r =? 0); [discriminate|].
  destruct (sub b (Z.to_nat (j_off r)) (Z.to_nat (j_ps r + 8))) as [fr|]; [|discriminate].
  destruct (negb _); [discriminate|]. intros H; inversion H; subst. cbn. lia.
Qed.

Lemma jsegment_progress b : forall fuel r acc, j_off r <= j_off (snd (jsegment fuel b r acc)) /\ j_sector (snd (jsegment fuel b r acc)) = j_sector r.
Proof.
  induction fuel as [|fuel IH]; intros r acc; cbn [jsegment]; [cbn; lia|].
  destruct (jread b r) as [[[pg d] r']|] eqn:E; [|cbn; lia].
  destruct (jread_progress _ _ _ _ _ E) as [A B]. destruct (IH r' (acc ++ [(pg, d)])) as [C D]. split; [lia|congruence].
Qed.

(* the measure: every header the loop accepts moves the offset on by a sector, which is at least 32 bytes, and never past
   the end of the file - so the loop can only run out of fuel if the file holds 32 bytes for each unit of it *)
Lemma jrun_fuel b : forall fuel r acc, JInv r -> snd (jrun fuel b r acc) = 98%N ->
  fuel = 0%nat \/ j_off r + 32 * Z.of_nat fuel <= Z.of_nat (length b).
Proof.
  induction fuel as [|fuel IH]; intros r acc HI H; [left; reflexivity|right].
  cbn [jrun] in H. destruct (jnext b r) as [r1|r1|r1] eqn:En; try (cbn in H; discriminate).
  destruct (jnext_ok_progress b r r1 HI En) as [HI1 [Hp [Hle Hs1]]].
  destruct (jsegment (S (length b)) b r1 []) as [recs r2] eqn:Es.
  pose proof (jsegment_progress b (S (length b)) r1 []) as [A B]. rewrite Es in A, B. cbn [snd] in A, B.
  assert (HI2 : JInv r2) by (unfold JInv in *; lia).
  rewrite Nat2Z.inj_succ. destruct (IH r2 (acc ++ [recs]) HI2 H) as [E|E]; [subst fuel; cbn|]; lia.
Qed.

Theorem jrun_terminates b ps : snd (jrun (S (length b)) b (jinit ps) []) <> 98%N.
Proof.
  intros H98. destruct (jrun_fuel b (S (length b)) (jinit ps) [] ltac:(unfold JInv, jinit; cbn; lia) H98) as [E|E]; [discriminate|].
  unfold jinit in E. cbn [j_off] in E. lia.
Qed.

Local Open Scope N_scope.
(* [v land (v - 1) = 0]: v and v - 1 share no bit; were v not a power of two, both would have v's top bit *)
Lemma land_pred_pow2 v : v <> 0 -> N.land v (v - 1) = 0 -> v = 2 ^ N.log2 v.
Proof.
  intros Hv H. pose proof (N.log2_spec v ltac:(lia)) as [Hlo Hhi].
  destruct (N.eq_dec v (2 ^ N.log2 v)) as [E|E]; [exact E|exfalso].
  assert (N.log2 (v - 1) = N.log2 v) as HL by (apply N.log2_unique; lia).
  assert (N.testbit (N.land v (v - 1)) (N.log2 v) = true) as B.
  { rewrite N.land_spec. rewrite (N.bit_log2 v) by lia. rewrite <- HL. rewrite N.bit_log2; [reflexivity|]. lia. }
  rewrite H, N.bits_0 in B. discriminate B.
Qed.
Lemma wal_ps_ok_aligned v : wal_ps_ok v = true -> v mod 8 = 0.
Proof.
  unfold wal_ps_ok. rewrite !andb_true_iff, !N.leb_le, N.eqb_eq. intros [[Hlo _] Hp].
  rewrite (land_pred_pow2 v ltac:(lia) Hp).
  assert (3 <= N.log2 v) by (change 3 with (N.log2 8); apply N.log2_le_mono; lia).
  replace (N.log2 v) with (3 + (N.log2 v - 3)) by lia. rewrite N.pow_add_r. change (2 ^ 3) with 8.
  rewrite N.mul_comm. apply N.mod_mul. discriminate.
Qed.
Lemma wal_header_page_size b h : wal_read_header b = HOk h -> wal_ps_ok (wh_ps h) = true /\ wh_ps h mod 8 = 0.
Proof.
  unfold wal_read_header. destruct (sub b 0 32) as [hdr|]; [|discriminate].
  destruct (negb _); [discriminate|]. destruct (wal_checksum _ 0 0 _) as [c1 c2].
  destruct (negb (_ && _)); [discriminate|]. destruct (negb (u32 hdr 4 =? 3007000)); [discriminate|].
  destruct (wal_ps_ok (u32 hdr 8)) eqn:E; cbn [negb]; [|discriminate].
  intros H. injection H as <-. cbn [wh_ps]. split; [exact E|exact (wal_ps_ok_aligned _ E)].
Qed.

(* C16/C04: what an export reads is the logical database whose from-scratch checksum the position carries - along every
   history into and through WAL mode. *)
From Coq Require Import NArith List Lia Permutation.
Require Import LF.Model.PageDB LF.Proofs.ChecksumProofs LF.Proofs.CaptureProofs LF.Proofs.HistoryProofs
  LF.Proofs.WalHistoryProofs LF.Proofs.WalCheckpointProofs LF.Proofs.SqlCheckpointProofs LF.Proofs.FollowWalProofs.
Import ListNotations.
Local Open Scope N_scope.

Lemma sort_pages_keys l : KeysNoDup l -> KeysNoDup (sort_pages l ([] : list (N * pg))).
Proof.
  intros H. unfold KeysNoDup in *. apply (Permutation_NoDup (l := map fst l)); [|exact H].
  symmetry. rewrite sort_pages_perm. cbn [map]. rewrite app_nil_r. reflexivity.
Qed.
Lemma alookup_sort_pages p l : KeysNoDup l -> alookup p (sort_pages l ([] : list (N * pg))) = alookup p l.
Proof.
  intros Hk. pose proof (sort_pages_keys l Hk) as Hks.
  destruct (alookup p l) as [q|] eqn:E.
  - apply alookup_in in E. apply (in_alookup_nodup p q _ Hks). apply sort_pages_in. left. exact E.
  - destruct (alookup p (sort_pages l [])) as [q'|] eqn:E'; [|reflexivity].
    apply alookup_in, sort_pages_in in E'. destruct E' as [E'|[]]. apply (in_alookup_nodup p q' _ Hk) in E'. congruence.
Qed.

(* LiteFS's index of the log (what readPage consults) names the same version of every page as the log itself *)
Definition LatestEq (s : st) : Prop := forall p, alookup p (wal_latest s) = alookup p (wpages s).

Lemma commit_wal_latest s frames commit s' : op_commit_wal s frames commit = (Done, s') ->
  wal_latest s' = merge_latest (sort_pages (last_versions frames []) []) (wal_latest s).
Proof.
  intros H. apply op_commit_wal_inv in H. destruct H as (new & post & s1 & _ & Eck & _ & ->).
  pose proof (frame_checksum s commit new) as F. rewrite Eck in F. cbn [snd] in F.
  cbn [wal_latest with_pos with_wal]. rewrite (fr_wal_latest _ _ F). reflexivity.
Qed.

Lemma latest_commit s v fr c s' : WL s v -> WK s v -> LatestEq s -> wf_wal2 s fr c ->
  op_commit_wal s fr c = (Done, s') -> LatestEq s'.
Proof.
  intros HW HK HL [_ [Hne [Hc0 _]]] H p.
  rewrite (commit_wal_latest s fr c s' H), (commit_wpages_lookup s v fr c s' HW HK Hne Hc0 H).
  assert (KeysNoDup (last_versions fr ([] : list (N * pg)))) as Hk by (apply last_versions_keys; constructor).
  rewrite alookup_merge_latest by (apply sort_pages_keys; exact Hk).
  rewrite alookup_sort_pages by exact Hk. rewrite alookup_last_versions_nil, HL. reflexivity.
Qed.

Lemma commit_journal_latest s c s' : op_commit_journal s c = (Done, s') -> wal_latest s' = wal_latest s.
Proof.
  intros H. destruct (op_commit_journal_inv s c s' H) as [_ (pages & sj & post & s2 & Ej & Eck & ->)].
  pose proof (frame_checksum (clear_after_commit sj (length (chk_pages sj)) c) c []) as F2. rewrite Eck in F2. cbn [snd] in F2.
  cbn [wal_latest with_dirty with_pos].
  rewrite (fr_wal_latest _ _ F2), (fr_wal_latest _ _ (frame_clear_after_commit _ sj c)), (fr_wal_latest _ _ (frame_journal_pages _ _ _ _ _ Ej)).
  reflexivity.
Qed.
Lemma jop_latest s o s' : jop o -> step s o = (Done, s') -> wal_latest s' = wal_latest s.
Proof.
  destruct o; cbn [jop]; try contradiction; intros _ H.
  - cbn [step] in H. unfold op_write_page in H. destruct (negb (writeable s)); [discriminate|]. inversion H; subst. destruct (wal_mode s); reflexivity.
  - cbn [step] in H. destruct (op_truncate_inv s n s' H) as [_ ->]. exact (fr_wal_latest _ _ (frame_truncate_db s n)).
  - destruct (step_commit_cases s commit s' H) as [[_ [_ ->]]|Hc]; [reflexivity|exact (commit_journal_latest s commit s' Hc)].
  - inversion H; subst. reflexivity.
  - cbn [step] in H. unfold op_zero_fill in H. inversion H; subst. reflexivity.
Qed.
Lemma run_group_latest ops s s' : Forall jop ops -> run_group s ops = (0, s') -> wal_latest s' = wal_latest s.
Proof.
  intros Hj. apply (run_group_ind (fun x => wal_latest x = wal_latest s) jop); [|exact Hj|reflexivity].
  intros s0 o s1 Ho E0 E. rewrite (jop_latest s0 o s1 Ho E). exact E0.
Qed.
Lemma run_hsteps_latest : forall hs s s', run_hsteps s hs = Some s' -> wal_latest s' = wal_latest s.
Proof.
  induction hs as [|h r IH]; intros s s' H; cbn [run_hsteps] in H; [inversion H; reflexivity|].
  destruct (run_group s (hops s h)) as [code s1] eqn:E. destruct code; [|discriminate].
  rewrite (IH s1 s' H). apply (run_group_latest _ s s1 (hops_jops s h) E).
Qed.

Lemma latest_eq_frame s s' : wal_latest s' = wal_latest s -> wal_file s' = wal_file s -> LatestEq s -> LatestEq s'.
Proof. unfold LatestEq, wpages, wscan. intros -> ->. exact (fun H => H). Qed.

Lemma latest_step s v o s' : WL s v -> WK s v -> LatestEq s -> wf_wop2 s o ->
  run_group s (wop2_ops s o) = (0, s') -> LatestEq s'.
Proof.
  intros HW HK HL Hwf H.
  assert (Hwr : forall p q, run_group s [OWrite p q] = (0, s') -> LatestEq s').
  { intros p q Hr. assert (Forall jop [OWrite p q]) as Hj by repeat constructor.
    exact (latest_eq_frame s s' (run_group_latest _ s s' Hj Hr) (run_group_wal_file _ s s' Hj Hr) HL). }
  destruct o as [fr c| |p|p q|]; cbn [wop2_ops wf_wop2] in *.
  - apply run_group_one in H. cbn [step] in H. apply (latest_commit s v fr c s' HW HK HL Hwf H).
  - apply run_group_one in H. cbn [step] in H. unfold op_checkpoint in H.
    destruct (wal_committed _ _ _ _) as [pages lastc]. inversion H; subst s'. intros x. reflexivity.
  - destruct (alookup p (wpages s)) as [q|]; [exact (Hwr p q H)|]. cbn [run_group] in H. inversion H; subst s'. exact HL.
  - exact (Hwr p q H).
  - unfold sql_ckpt_ops in H. rewrite run_group_app, (run_wal_writes _ s (w_w s v HW) (w_mode s v HW)) in H.
    cbn [run_group step] in H. destruct (op_truncate _ _) as [oc st1]. destruct oc; cbn [ocode] in H; try (inversion H; fail).
    unfold op_wal_header in H. inversion H; subst s'. intros x. reflexivity.
Qed.

Lemma read_page_view s v : WL s v -> WK s v -> LatestEq s ->
  forall p q, 1 <= p <= pageN s -> p <> lockpg s -> read_page s p = Some q -> pg_h q = v p.
Proof.
  intros HW HK HL p q Hp Hnl Hr. destruct HW as [Ww Wm Wl Wc Wz Wv Wt Wk].
  destruct HK as [k_scan0 k_last0 k_hash0 k_keys0 k_truth0 k_empty0 k_pos0 k_nodup0 k_in0].
  unfold read_page in Hr. rewrite HL in Hr. destruct (alookup p (wpages s)) as [q'|] eqn:El.
  - inversion Hr; subst q'. apply (k_hash0 p q El); [lia|assumption].
  - assert (~ Cov s p) as Hnc by (intros [Hc|Hc]; [contradiction|lia]).
    assert (alookup p (wal_chk s) = None) as Hnk.
    { destruct (alookup p (wal_chk s)) eqn:Ek; [|reflexivity]. exfalso. apply Hnc. apply (k_keys0 p Hnl). rewrite Ek. discriminate. }
    rewrite <- (Wv p Hp Hnl). rewrite eff_cases by (assumption || lia). rewrite Hnk.
    destruct (k_truth0 p ltac:(lia) Hnl) as [E|[_ Cv]]; [|contradiction]. rewrite E. symmetry. apply file_pg_h. exact Hr.
Qed.

Theorem latest_history_invariant : forall os s v s' v',
  WL s v -> WK s v -> LatestEq s -> wf_wops2 s os -> run_wops2 s v os = Some (s', v') ->
  WL s' v' /\ WK s' v' /\ LatestEq s' /\ lockpg s' = lockpg s.
Proof.
  induction os as [|o r IH]; intros s v s' v' HW HK HL Hwf H; cbn [run_wops2 wf_wops2] in *.
  - inversion H; subst. auto.
  - destruct Hwf as [Hw Hrest]. destruct (run_group s (wop2_ops s o)) as [code s1] eqn:E. destruct code; [|discriminate].
    destruct (wop2_step s v o s1 HW HK Hw E) as [HW1 [HK1 El1]].
    destruct (IH s1 _ s' v' HW1 HK1 (latest_step s v o s1 HW HK HL Hw E) (Hrest s1 eq_refl) H) as [A [B [C D]]].
    split; [exact A|]. split; [exact B|]. split; [exact C|congruence].
Qed.

Lemma switch_history_latest lock hs zf acts c os s1 s2 s' v' :
  1 <= lock -> wf_hist (init lock) hs -> run_hsteps (init lock) hs = Some s1 ->
  wf_tx_any s1 zf acts -> run_group s1 (hops s1 (HTx zf acts c)) = (0, s2) -> wal_mode s2 = true ->
  wf_wops2 s2 os -> run_wops2 s2 (file_h s2) os = Some (s', v') ->
  WL s' v' /\ WK s' v' /\ LatestEq s' /\ lockpg s' = lock.
Proof.
  intros Hl Hwf H1 Hsw H2 Hm Hww H3.
  destruct (switch_entry lock hs zf acts c s1 s2 Hl Hwf H1 Hsw H2 Hm) as [HW [HK [El2 Hf2]]].
  pose proof (run_hsteps_latest hs (init lock) s1 H1) as Hl1.
  pose proof (run_group_latest _ s1 s2 (hops_jops s1 (HTx zf acts c)) H2) as Hl2. rewrite Hl1 in Hl2.
  assert (LatestEq s2) as HL2 by (intros p; rewrite Hl2, (wpages_nil_of_file s2 Hf2); reflexivity).
  destruct (latest_history_invariant os s2 (file_h s2) s' v' HW HK HL2 Hww H3) as [HW' [HK' [HL' El']]].
  split; [exact HW'|]. split; [exact HK'|]. split; [exact HL'|congruence].
Qed.

Theorem export_matches_position lock hs zf acts c os s1 s2 s' v' :
  1 <= lock -> wf_hist (init lock) hs -> run_hsteps (init lock) hs = Some s1 ->
  wf_tx_any s1 zf acts -> run_group s1 (hops s1 (HTx zf acts c)) = (0, s2) -> wal_mode s2 = true ->
  wf_wops2 s2 os -> run_wops2 s2 (file_h s2) os = Some (s', v') ->
  snd (op_export s') = (txid s', chk s') /\
  chk s' = scratch (fun p => if p =? lock then 0 else v' p) (pageN s') /\
  (forall p q, 1 <= p <= pageN s' -> p <> lock -> read_page s' p = Some q -> pg_h q = v' p).
Proof.
  intros Hl Hwf H1 Hsw H2 Hm Hww H3.
  destruct (switch_history_latest lock hs zf acts c os s1 s2 s' v' Hl Hwf H1 Hsw H2 Hm Hww H3) as [HW' [HK' [HL' El]]].
  split; [reflexivity|]. split.
  - destruct HW'. rewrite El in *. assumption.
  - intros p q Hp Hnl Hr. apply (read_page_view s' v' HW' HK' HL' p q Hp); [rewrite El; exact Hnl|exact Hr].
Qed.

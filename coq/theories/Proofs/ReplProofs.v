(* C06 / C01: the primary's streaming decisions and what they imply for replicas. *)
From Coq Require Import NArith List Lia Bool.
Require Import LF.Model.PageDB LF.Model.Repl.
Import ListNotations.
Local Open Scope N_scope.

Lemma open_ltx_spec dir t f : open_ltx dir t = Some f -> In f dir /\ l_min f = t /\ l_max f = t.
Proof.
  unfold open_ltx. intros H. apply find_some in H. destruct H as [Hin Hb].
  apply andb_true_iff in Hb. destruct Hb as [A B]. apply N.eqb_eq in A. apply N.eqb_eq in B. auto.
Qed.

Theorem send_ltx_only_if_extends ppos dir cpos f :
  stream_decide ppos dir cpos = ASendLTX f ->
  In f dir /\ l_min f = fst cpos + 1 /\ l_max f = fst cpos + 1 /\ l_pre f = snd cpos /\
  fst cpos < fst ppos /\ effective_client ppos cpos = cpos.
Proof.
  unfold stream_decide. set (c := effective_client ppos cpos).
  destruct (N.leb_spec (fst ppos) (fst c)) as [Hle|Hgt]; [discriminate|].
  destruct (N.eqb_spec (fst c + 1) 1) as [E1|E1]; [discriminate|].
  destruct (open_ltx dir (fst c + 1)) as [g|] eqn:Eo; [|discriminate].
  destruct (N.eqb_spec (l_pre g) (snd c)) as [Ep|Ep]; [|discriminate].
  intros H; inversion H; subst g. apply open_ltx_spec in Eo. destruct Eo as [Hin [Hmin Hmax]].
  assert (c = cpos) as Ec.
  { unfold c, effective_client in *. destruct (fst ppos <? fst cpos); [cbn in E1; lia|].
    destruct ((fst cpos =? fst ppos) && negb (snd cpos =? snd ppos)); [cbn in E1; lia|reflexivity]. }
  rewrite Ec in *. repeat split; assumption.
Qed.

Lemma effective_client_keep ppos cpos : fst cpos <= fst ppos -> (fst cpos = fst ppos -> snd cpos = snd ppos) ->
  effective_client ppos cpos = cpos.
Proof.
  intros Hle He. unfold effective_client. destruct (N.ltb_spec (fst ppos) (fst cpos)); [lia|].
  destruct (N.eqb_spec (fst cpos) (fst ppos)) as [E|E]; [|reflexivity]. rewrite (He E), N.eqb_refl. reflexivity.
Qed.
Lemma effective_client_reset ppos cpos : fst ppos < fst cpos \/ (fst cpos = fst ppos /\ snd cpos <> snd ppos) ->
  effective_client ppos cpos = (0, 0).
Proof.
  unfold effective_client. intros [H|[H1 H2]].
  - destruct (N.ltb_spec (fst ppos) (fst cpos)); [reflexivity|lia].
  - destruct (N.ltb_spec (fst ppos) (fst cpos)); [reflexivity|]. rewrite H1, N.eqb_refl.
    destruct (N.eqb_spec (snd cpos) (snd ppos)); [contradiction|reflexivity].
Qed.
Lemma empty_effective_gets_snapshot ppos dir cpos : fst (effective_client ppos cpos) = 0 -> 1 <= fst ppos ->
  stream_decide ppos dir cpos = ASnapshot.
Proof. intros H0 H1. unfold stream_decide. rewrite H0. destruct (N.leb_spec (fst ppos) 0); [lia|reflexivity]. Qed.

Theorem ahead_gets_snapshot ppos dir cpos :
  fst ppos < fst cpos -> 1 <= fst ppos -> stream_decide ppos dir cpos = ASnapshot.
Proof. intros H H1. apply empty_effective_gets_snapshot; [|exact H1]. rewrite effective_client_reset by tauto. reflexivity. Qed.
Theorem same_txid_other_checksum_gets_snapshot ppos dir cpos :
  fst cpos = fst ppos -> snd cpos <> snd ppos -> 1 <= fst ppos -> stream_decide ppos dir cpos = ASnapshot.
Proof. intros H H2 H1. apply empty_effective_gets_snapshot; [|exact H1]. rewrite effective_client_reset by tauto. reflexivity. Qed.
Theorem empty_client_gets_snapshot ppos dir c :
  1 <= fst ppos -> stream_decide ppos dir (0, c) = ASnapshot.
Proof.
  intros H1. apply empty_effective_gets_snapshot; [|exact H1]. unfold effective_client. cbn [fst snd].
  destruct (fst ppos <? 0); [reflexivity|]. destruct ((0 =? fst ppos) && negb (c =? snd ppos)); reflexivity.
Qed.
Lemma stream_decide_behind ppos dir cpos : fst cpos < fst ppos ->
  stream_decide ppos dir cpos =
  if fst cpos + 1 =? 1 then ASnapshot
  else match open_ltx dir (fst cpos + 1) with
       | None => ASnapshot
       | Some f => if l_pre f =? snd cpos then ASendLTX f else ASnapshot
       end.
Proof.
  intros H. unfold stream_decide. rewrite effective_client_keep by lia.
  destruct (N.leb_spec (fst ppos) (fst cpos)); [lia|reflexivity].
Qed.
Theorem missing_file_gets_snapshot ppos dir cpos :
  fst cpos < fst ppos -> open_ltx dir (fst cpos + 1) = None -> stream_decide ppos dir cpos = ASnapshot.
Proof. intros H Ho. rewrite stream_decide_behind, Ho by exact H. destruct (_ =? 1); reflexivity. Qed.
Theorem pre_mismatch_gets_snapshot ppos dir cpos f :
  fst cpos < fst ppos -> open_ltx dir (fst cpos + 1) = Some f -> l_pre f <> snd cpos -> stream_decide ppos dir cpos = ASnapshot.
Proof.
  intros H Ho Hp. rewrite stream_decide_behind, Ho by exact H.
  destruct (N.eqb_spec (l_pre f) (snd cpos)); [contradiction|]. destruct (_ =? 1); reflexivity.
Qed.
Theorem done_iff_caught_up ppos dir cpos :
  stream_decide ppos dir cpos = ADone <-> fst ppos <= fst (effective_client ppos cpos).
Proof.
  unfold stream_decide. destruct (N.leb_spec (fst ppos) (fst (effective_client ppos cpos))) as [H|H].
  - tauto.
  - split; [|intros; lia]. destruct (_ =? 1); [discriminate|]. destruct (open_ltx _ _) as [f|]; [|discriminate].
    destruct (_ =? _); discriminate.
Qed.

Definition last_file_ok (ppos : pos) (dir : list ltxrec) : Prop :=
  forall f, In f dir -> l_max f = fst ppos -> l_post f = snd ppos.

Lemma stream_db_bound ppos dir : last_file_ok ppos dir ->
  forall fuel cpos, (length (stream_db fuel ppos dir cpos) <= N.to_nat (fst ppos - fst (effective_client ppos cpos)) + 1)%nat.
Proof.
  intros Hok. induction fuel as [|fuel IH]; intros cpos; cbn [stream_db]; [cbn [length]; lia|].
  destruct (stream_decide ppos dir cpos) as [|f|] eqn:Ed; [cbn [length]; lia| |].
  - destruct (send_ltx_only_if_extends _ _ _ _ Ed) as [Hin [Hmin [Hmax [Hpre [Hlt Heff]]]]].
    cbn [length after_action]. specialize (IH (l_max f, l_post f)).
    assert (fst (effective_client ppos (l_max f, l_post f)) = fst cpos + 1) as E.
    { rewrite effective_client_keep; cbn [fst snd]; [lia|lia|]. intros Em. exact (Hok f Hin Em). }
    rewrite E in IH. rewrite Heff. lia.
  - cbn [length after_action]. specialize (IH ppos).
    assert (stream_db fuel ppos dir ppos = []) as E.
    { destruct fuel; [reflexivity|]. cbn [stream_db].
      assert (stream_decide ppos dir ppos = ADone) as ->; [|reflexivity].
      apply done_iff_caught_up. rewrite effective_client_keep by (lia || reflexivity). lia. }
    rewrite E. cbn. lia.
Qed.

Definition image := N -> option pg.
Definition img_eq (lock n : N) (a b : image) : Prop := forall p, 1 <= p <= n -> p <> lock -> a p = b p.

(* [delta lock f a b]: b is a with f applied (pages written, size set to the commit size) *)
Definition delta (lock : N) (f : ltxrec) (a b : image) : Prop :=
  forall p, 1 <= p <= l_commit f -> p <> lock ->
    b p = match alookup p (l_pages f) with Some q => Some q | None => a p end.

Lemma delta_det lock f a a' b b' :
  (forall p, 1 <= p <= l_commit f -> p <> lock -> alookup p (l_pages f) = None -> a p = a' p) ->
  delta lock f a b -> delta lock f a' b' -> img_eq lock (l_commit f) b b'.
Proof.
  intros Ha Hd Hd' p Hp Hl. rewrite (Hd p Hp Hl), (Hd' p Hp Hl).
  destruct (alookup p (l_pages f)) eqn:E; [reflexivity|]. apply Ha; assumption.
Qed.

(* The global ghost map "the primary's database as it stood when it committed (t, c)".
   NoCollision is the assumption that such a map exists: a position determines an image. *)
Section World.
  Variable lock : N.
  Variable world : pos -> image.

  (* a file in some node's log is a true delta of the world *)
  Definition true_delta (f : ltxrec) : Prop :=
    delta lock f (world (l_min f - 1, l_pre f)) (world (l_max f, l_post f)).

  Theorem incremental_keeps_image ppos dir cpos f (rimg rimg' : image) :
    stream_decide ppos dir cpos = ASendLTX f ->
    (forall g, In g dir -> true_delta g) ->
    (forall p, 1 <= p -> p <> lock -> rimg p = world cpos p) ->
    delta lock f rimg rimg' ->
    img_eq lock (l_commit f) rimg' (world (l_max f, l_post f)).
  Proof.
    intros Hd Htd Hr Hdelta. destruct (send_ltx_only_if_extends _ _ _ _ Hd) as [Hin [Hmin [_ [Hpre _]]]].
    pose proof (Htd f Hin) as Hw. unfold true_delta in Hw.
    assert (l_min f - 1 = fst cpos) as E by lia. rewrite E, Hpre in Hw.
    eapply delta_det; [|exact Hdelta|exact Hw].
    intros p Hp Hl _. rewrite <- surjective_pairing. apply Hr; lia.
  Qed.
End World.

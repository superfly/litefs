(* C04 on a replica: along every history of received transaction files the per-page cache is the database file's, and every
   position the replica takes is the from-scratch checksum of its database file. *)
From Coq Require Import NArith List Lia Bool.
Require Import LF.Model.PageDB LF.Proofs.ChecksumProofs LF.Proofs.CaptureProofs LF.Proofs.ChainProofs
  LF.Proofs.HistoryProofs LF.Proofs.WalCheckpointProofs.
Import ListNotations.
Local Open Scope N_scope.

(* between applies: no WAL bookkeeping; the cache is the file's everywhere; nothing beyond the database size *)
Record RB (s : st) : Prop := {
  r_lk1 : 1 <= lockpg s; r_cache : CacheOK s; r_lz : LockZero s; r_nowal : wal_chk s = [];
  r_truth : forall p, 1 <= p -> p <> lockpg s -> dbc s p = file_h s p;
  r_tail : forall p, pageN s < p -> dbc s p = 0 /\ file_h s p = 0
}.

Definition wf_ltx (f : ltxrec) : Prop :=
  (forall p q, In (p, q) (l_pages f) -> 1 <= p) /\ KeysNoDup (l_pages f).

Lemma apply_pre_facts s f : 1 <= lockpg s -> CacheOK s -> LockZero s -> wf_ltx f ->
  let s3 := apply_pre s f in
  CacheOK s3 /\ LockZero s3 /\ lockpg s3 = lockpg s /\ wal_chk s3 = wal_chk s /\ pageN s3 = l_commit f /\
  (forall x, 1 <= x -> dbc s3 x = if x <=? l_commit f
                                  then match alookup x (l_pages f) with Some q => if x =? lockpg s then 0 else pg_h q | None => dbc s x end
                                  else 0) /\
  (forall x, 1 <= x -> file_h s3 x = if x <=? l_commit f
                                     then match alookup x (l_pages f) with Some q => pg_h q | None => file_h s x end
                                     else 0).
Proof.
  intros Hlk HC HL [Hpos Hnd]. unfold apply_pre.
  destruct (fold_write_cache (l_pages f) s Hpos Hnd Hlk HC HL) as [B1 [B2 [B9 B10]]].
  pose proof (frame_fold_write (l_pages f) s) as HF. pose proof (fr_lockpg _ _ HF) as B3.
  set (s1 := fold_left (fun a kv => write_db_page a (fst kv) (snd kv)) (l_pages f) s) in *. clearbody s1. cbn zeta in *.
  destruct (N.eqb_spec (l_commit f) 0) as [Ec|Ec]; cbn zeta.
  - (* a tombstone: the database goes away *)
    rewrite Ec. cbn [lockpg wal_chk pageN with_pos].
    assert (Hz : forall d x, nth (N.to_nat (x - 1)) (@nil N) d = d) by (intros d x; destruct (N.to_nat (x - 1)); reflexivity).
    split; [apply cacheok_noblocks; reflexivity|].
    split; [apply Hz|]. split; [exact B3|]. split; [exact (fr_wal_chk _ _ HF)|]. split; [reflexivity|].
    split; intros x Hx; destruct (N.leb_spec x 0); try lia; [apply Hz|].
    unfold file_h, file_pg. cbn [dbfile with_pos]. destruct (N.to_nat (x - 1)); reflexivity.
  - destruct (truncate_db_spec s1 (l_commit f) B1 B2 ltac:(rewrite B3; exact Hlk)) as [T1 [T2 [T8 [T9 _]]]].
    pose proof (frame_truncate_db s1 (l_commit f)) as HT. cbn zeta in *.
    split; [exact T1|]. split; [exact T2|]. cbn [lockpg wal_chk pageN with_pos].
    split; [rewrite (fr_lockpg _ _ HT); exact B3|]. split; [rewrite (fr_wal_chk _ _ HT); exact (fr_wal_chk _ _ HF)|]. split; [reflexivity|].
    split; intros x Hx.
    + transitivity (dbc (truncate_db s1 (l_commit f)) x); [reflexivity|]. rewrite T8, B9 by exact Hx. reflexivity.
    + transitivity (file_h (truncate_db s1 (l_commit f)) x); [reflexivity|]. rewrite T9, B10 by exact Hx. reflexivity.
Qed.

(* ApplyLTXNoLock from any state whose cache is truthful where the file leaves pages alone: afterwards the cache is the
   file's everywhere and the position's checksum is the file's from-scratch checksum *)
Lemma apply_core s f fatal s' :
  1 <= lockpg s -> CacheOK s -> LockZero s -> wal_chk s = [] -> wf_ltx f ->
  (forall x, 1 <= x <= l_commit f -> x <> lockpg s -> alookup x (l_pages f) = None -> dbc s x = file_h s x) ->
  op_apply s f fatal = (Done, s') ->
  RB s' /\ lockpg s' = lockpg s /\ txid s' = l_max f /\ pageN s' = l_commit f /\ chk s' = l_post f /\
  chk s' = scratch (fun p => if p =? lockpg s' then 0 else file_h s' p) (pageN s').
Proof.
  intros Rl Rc Rz Rw Hwf Rt H.
  destruct (op_apply_inv s f fatal s' H) as [s4 [Eck ->]].
  destruct (apply_pre_facts s f Rl Rc Rz Hwf) as [P1 [P2 [P3 [P4 [P5 [P6 P7]]]]]]. cbn zeta in *.
  set (s3 := apply_pre s f) in *. clearbody s3.
  assert (Ht3 : forall p, 1 <= p -> p <> lockpg s -> dbc s3 p = file_h s3 p).
  { intros p Hp Hnl. rewrite P6, P7 by exact Hp. destruct (N.leb_spec p (l_commit f)); [|reflexivity].
    destruct (alookup p (l_pages f)) eqn:El; [destruct (N.eqb_spec p (lockpg s)); [contradiction|reflexivity]|].
    apply Rt; [lia|assumption|assumption]. }
  assert (Hz3 : forall p, l_commit f < p -> dbc s3 p = 0 /\ file_h s3 p = 0).
  { intros p Hp. rewrite P6, P7 by lia. destruct (N.leb_spec p (l_commit f)); [lia|auto]. }
  destruct (checksum_result _ _ _ _ _ Eck) as [HF [Edb [Hd4 HC4]]]. specialize (HC4 P1).
  pose proof (file_h_dbfile _ _ Edb) as Hf4.
  assert (Hc : l_post f = scratch (eff s3 (l_commit f) []) (l_commit f)).
  { apply (checksum_is_scratch s3 (l_commit f) [] _ s4); [|exact Eck]. apply pre_intro; [exact P1|exact P2|].
    intros p Hp. left. apply (Hz3 p Hp). }
  cbn [lockpg txid pageN chk with_pos]. rewrite (fr_lockpg _ _ HF), P3.
  split; [|split; [reflexivity|split; [reflexivity|split; [reflexivity|split; [reflexivity|]]]]].
  - constructor; cbn [lockpg pageN wal_chk with_pos]; rewrite ?(fr_lockpg _ _ HF), ?P3.
    + exact Rl.
    + exact HC4.
    + unfold LockZero. cbn [lockpg with_pos]. rewrite (fr_lockpg _ _ HF). change (dbc s4 (lockpg s3) = 0). rewrite Hd4. exact P2.
    + rewrite (fr_wal_chk _ _ HF), P4. exact Rw.
    + intros p Hp Hnl. change (dbc s4 p = file_h s4 p). rewrite Hd4, Hf4. apply Ht3; assumption.
    + intros p Hp. change (dbc s4 p = 0 /\ file_h s4 p = 0). rewrite Hd4, Hf4. apply (Hz3 p Hp).
  - rewrite Hc. apply scratch_ext. intros p Hp. rewrite eff_eq, P3, P4, Rw. cbn [alookup].
    destruct (N.eqb_spec p (lockpg s)) as [_|Hnl]; [reflexivity|]. destruct (N.ltb_spec (l_commit f) p); [lia|].
    change (file_h s4 p) with (file_h (with_pos s4 (l_commit f) (wal_mode s3) (l_max f) (l_post f) (ltxdir s4)) p).
    rewrite Ht3 by (assumption || lia). symmetry. apply Hf4.
Qed.

Lemma rb_apply s f fatal s' : RB s -> wf_ltx f -> op_apply s f fatal = (Done, s') ->
  RB s' /\ lockpg s' = lockpg s /\ txid s' = l_max f /\ pageN s' = l_commit f /\ chk s' = l_post f /\
  chk s' = scratch (fun p => if p =? lockpg s' then 0 else file_h s' p) (pageN s').
Proof.
  intros [Rl Rc Rz Rw Rt Rtl] Hwf H. apply (apply_core s f fatal s' Rl Rc Rz Rw Hwf); [|exact H].
  intros x Hx Hnl _. apply Rt; [lia|assumption].
Qed.

(* RB says nothing of the position, so that one apply establishes it from any state (Open does); along a replica's
   history the position's checksum is the file's as soon as there is a position *)
Record RBC (s : st) : Prop := {
  rc_rb : RB s;
  rc_chk : txid s <> 0 -> chk s = scratch (fun p => if p =? lockpg s then 0 else file_h s p) (pageN s)
}.
Lemma rb_with_dir s d : RB s -> RB (with_dir s d).
Proof. intros [A B C D E F]. constructor; assumption. Qed.

Lemma receive_cases s f oc s' : op_receive s f = (oc, s') ->
  (oc = Failed /\ s' = s) \/ op_apply (with_dir s (if is_snapshot f then [f] else ltxdir s ++ [f])) f true = (oc, s') /\ oc <> Failed.
Proof.
  unfold op_receive. destruct (negb (is_snapshot f) && negb (extends_pos s f)); intros H.
  - inversion H; subst. left. auto.
  - right. split; [exact H|]. intros ->. exact (apply_fatal_not_failed _ _ _ H).
Qed.

Definition wf_file (f : ltxrec) : Prop := wf_ltx f /\ l_max f <> 0.
Fixpoint run_recv (s : st) (fs : list ltxrec) : option st :=
  match fs with
  | [] => Some s
  | f :: r => match op_receive s f with
              | (Done, s') | (Failed, s') => run_recv s' r          (* applied, or refused with nothing changed *)
              | _ => None                                            (* the process exits *)
              end
  end.

Lemma rbc_receive s f oc s' : RBC s -> wf_ltx f -> op_receive s f = (oc, s') -> oc = Done \/ oc = Failed ->
  RBC s' /\ lockpg s' = lockpg s.
Proof.
  intros [HR Hc] Hwf H Hoc. destruct (receive_cases s f oc s' H) as [[_ ->]|[Ha Hnf]].
  - split; [constructor; assumption|reflexivity].
  - destruct Hoc as [E|E]; subst oc; [|contradiction].
    destruct (rb_apply _ f true s' (rb_with_dir s _ HR) Hwf Ha) as [HR' [El [Et [_ [_ Ek]]]]].
    split; [|exact El]. constructor; [exact HR'|]. intros _. exact Ek.
Qed.

Theorem replica_history_invariant : forall fs s s',
  RBC s -> Forall wf_ltx fs -> run_recv s fs = Some s' -> RBC s' /\ lockpg s' = lockpg s.
Proof.
  induction fs as [|f r IH]; intros s s' HR Hwf H; cbn [run_recv] in H.
  - inversion H; subst. auto.
  - inversion Hwf as [|? ? Hf Hr]; subst. destruct (op_receive s f) as [oc s1] eqn:E.
    assert (oc = Done \/ oc = Failed) as Hoc by (destruct oc; try discriminate; auto).
    destruct (rbc_receive s f oc s1 HR Hf E Hoc) as [HR1 El1].
    assert (run_recv s1 r = Some s') as H' by (destruct oc; try discriminate; exact H).
    destruct (IH s1 s' HR1 Hr H') as [HR' El']. split; [exact HR'|congruence].
Qed.

Lemma rbc_init lock : 1 <= lock -> RBC (init lock).
Proof.
  intros Hl. constructor; [constructor|]; cbn [lockpg pageN txid wal_chk chk init]; try reflexivity; try assumption.
  - apply cacheok_noblocks. reflexivity.
  - apply dbc_nopages. reflexivity.
  - intros p _ _. rewrite (dbc_nopages (init lock)), (file_h_nofile (init lock)) by reflexivity. reflexivity.
  - intros p _. rewrite (dbc_nopages (init lock)), (file_h_nofile (init lock)) by reflexivity. auto.
  - intros H. contradiction H. reflexivity.
Qed.

Theorem replica_history_checksum lock fs s' :
  1 <= lock -> Forall wf_file fs -> run_recv (init lock) fs = Some s' ->
  (txid s' <> 0 -> chk s' = scratch (fun p => if p =? lock then 0 else file_h s' p) (pageN s')) /\
  (forall p, 1 <= p -> p <> lock -> dbc s' p = file_h s' p) /\ lockpg s' = lock.
Proof.
  intros Hl Hwf H. destruct (replica_history_invariant fs (init lock) s' (rbc_init lock Hl) (Forall_impl wf_ltx (fun f Hf => proj1 Hf) Hwf) H) as [[HR Hc] El].
  change (lockpg (init lock)) with lock in El. destruct HR. rewrite El in *. auto.
Qed.

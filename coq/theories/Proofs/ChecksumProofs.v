(* C04 core: the block-cached checksum() of db.go equals the from-scratch XOR (checksum_is_scratch); what the helpers of
   db.go that touch the caches keep (Frame, the clearing loops, the CommitJournal page loop); the checksum CommitJournal
   reports (commit_journal_checksum); the inversions of CommitJournal, CommitWAL and Drop. *)
From Coq Require Import NArith List Lia Bool.
Require Import LF.Gen.ConstsGen LF.Model.PageDB LF.Proofs.XorLib.
Import ListNotations.
Local Open Scope N_scope.

Notation B := c_ChecksumBlockSize.

(* effective per-page checksum seen by checksum(): new WAL entries, then committed WAL, then database *)
Definition eff (s : st) (pN : N) (new : list (N * N)) (p : N) : N := fst (page_chk s p pN new).
Definition dbc (s : st) (p : N) : N := db_page_chk s p.

(* from-scratch value: flag | XOR of f over pages 1..pN *)
Definition scratch (f : N -> N) (pN : N) : N := fl (xorl (map f (seqN 1 (N.to_nat pN)))).

Lemma scratch_ext f g n : (forall p, 1 <= p <= n -> f p = g p) -> scratch f n = scratch g n.
Proof.
  intros H. unfold scratch. f_equal. f_equal. apply map_ext_in. intros p Hp. apply seqN_in in Hp. apply H. lia.
Qed.

Lemma alookup_none_iff {A} p (m : list (N * A)) : alookup p m = None <-> ~ In p (map fst m).
Proof.
  induction m as [|[k v] m IH]; cbn [alookup map fst In]; [tauto|].
  destruct (N.eqb_spec p k) as [->|Hne]; [split; [discriminate|tauto]|]. rewrite IH. split; [intros H [E|Hin]; auto|tauto].
Qed.

Lemma alookup_aput {A} p k (v : A) m : alookup p (aput k v m) = if p =? k then Some v else alookup p m.
Proof.
  induction m as [|[k' v'] m IH]; cbn [aput alookup].
  - destruct (p =? k); reflexivity.
  - destruct (N.eqb_spec k k') as [->|Hne]; cbn [alookup].
    + destruct (p =? k'); reflexivity.
    + destruct (N.eqb_spec p k') as [->|Hne2].
      * destruct (N.eqb_spec k' k); [congruence|reflexivity].
      * exact IH.
Qed.
Lemma alookup_in {A} p (v : A) m : alookup p m = Some v -> In (p, v) m.
Proof.
  induction m as [|[k' v'] m IH]; cbn [alookup]; [discriminate|].
  destruct (N.eqb_spec p k') as [->|Hne]; intros H; [inversion H; left; reflexivity|right; auto].
Qed.

Definition slots (s : st) (b : N) : list N := map (dbc s) (seqN (b * B + 1) (N.to_nat B)).

Definition CacheOK (s : st) : Prop :=
  forall b, b < lenN (chk_blocks s) -> nthN (chk_blocks s) b <> 0 ->
            nthN (chk_blocks s) b = rolling 0 (slots s b).

Definition LockZero (s : st) : Prop := dbc s (lockpg s) = 0.

(* what checksum() needs: truthful block cache, lock page slot 0, and in every block that will be
   taken from the cache (not ignored) the slots past the database size are 0 *)
Record Pre (s : st) (pN : N) (new : list (N * N)) : Prop := {
  cache_ok : CacheOK s;
  tail_zero : forall p, pN < p -> block_of p < block_of pN + 1 ->
                        ignored s new (block_of pN + 1) (block_of p) = false -> dbc s p = 0;
  lock_zero : dbc s (lockpg s) = 0
}.

Lemma ignored_of_key s new blockN p :
  alookup p new <> None \/ alookup p (wal_chk s) <> None -> block_of p < blockN -> ignored s new blockN (block_of p) = true.
Proof.
  assert (forall {A} (m : list (N * A)), alookup p m <> None -> block_of p < blockN ->
            existsb (fun kv => (block_of (fst kv) =? block_of p) && (block_of (fst kv) <? blockN)) m = true) as G.
  { intros A m Hl Hb. destruct (alookup p m) as [v|] eqn:E; [|congruence]. apply existsb_exists. exists (p, v).
    split; [apply alookup_in; exact E|]. cbn [fst]. rewrite N.eqb_refl. apply N.ltb_lt. exact Hb. }
  intros [H|H] Hb; unfold ignored; rewrite (G _ _ H Hb); [apply orb_true_r|reflexivity].
Qed.

Lemma pre_intro s pN new : CacheOK s -> LockZero s ->
  (forall p, pN < p -> dbc s p = 0 \/ alookup p new <> None \/ alookup p (wal_chk s) <> None) -> Pre s pN new.
Proof.
  intros HC HL HT. constructor; [exact HC| |exact HL]. intros p Hp Hb Hig.
  destruct (HT p Hp) as [Hz|Hk]; [exact Hz|]. rewrite (ignored_of_key _ _ _ _ Hk Hb) in Hig. discriminate.
Qed.

Lemma set_nth_same l : forall i v, nth i (set_nth l i v) 0 = v.
Proof. induction l as [|x l IH]; intros i v; destruct i; cbn; auto. induction i; cbn; auto. Qed.
Lemma set_nth_other l : forall i j v, i <> j -> nth j (set_nth l i v) 0 = nth j l 0.
Proof.
  induction l as [|x l IH]; intros i j v Hij.
  - revert j Hij. induction i as [|i IHi]; intros j Hij; destruct j; cbn; try congruence; auto.
    + destruct j; reflexivity.
    + rewrite IHi by congruence. destruct j; reflexivity.
  - destruct i, j; cbn; try congruence; auto.
Qed.
Lemma set_nth_length l : forall i v, (length l <= length (set_nth l i v))%nat /\ (i < length (set_nth l i v))%nat.
Proof.
  induction l as [|x l IH]; intros i v.
  - induction i as [|i IHi]; cbn; [lia|]. cbn in IHi. lia.
  - destruct i; cbn; [lia|]. specialize (IH i v). lia.
Qed.
Lemma set_nth_keeps_length l : forall i v, (i < length l)%nat -> length (set_nth l i v) = length l.
Proof.
  induction l as [|x l IH]; intros i v Hi; [cbn in Hi; lia|].
  destruct i; cbn; [reflexivity|]. rewrite IH by (cbn in Hi; lia). reflexivity.
Qed.

Lemma xor_slots_rolling s : forall n base acc, xor_slots s base n acc = rolling acc (map (dbc s) (seqN base n)).
Proof. induction n as [|n IH]; intros base acc; cbn [xor_slots seqN map]; [reflexivity|]. rewrite IH. reflexivity. Qed.

(* the cache invariant looks at the two caches only (stated by rewriting: conversion would unfold the 256 slots) *)
Lemma slots_ext s s' b : chk_pages s' = chk_pages s -> slots s' b = slots s b.
Proof. intros E. unfold slots. apply map_ext. intros p. unfold dbc, db_page_chk. rewrite E. reflexivity. Qed.
Lemma cacheok_ext s s' : chk_pages s' = chk_pages s -> chk_blocks s' = chk_blocks s -> CacheOK s -> CacheOK s'.
Proof. intros Ep Eb H b. rewrite (slots_ext s s' b Ep), Eb. exact (H b). Qed.

Lemma slots_nonempty s b : slots s b <> [].
Proof.
  unfold slots. pose proof blocksize_pos. destruct (N.to_nat B) eqn:E; [lia|]. cbn. discriminate.
Qed.

Lemma block_chk_spec s b : CacheOK s -> fst (block_chk s b) = rolling 0 (slots s b) /\ CacheOK (snd (block_chk s b)).
Proof.
  intros HC. unfold block_chk.
  destruct ((b <? lenN (chk_blocks s)) && negb (nthN (chk_blocks s) b =? 0)) eqn:Hc; cbn [fst snd].
  - apply andb_true_iff in Hc. destruct Hc as [H1 H2].
    apply N.ltb_lt in H1. apply negb_true_iff, N.eqb_neq in H2. split; [apply HC; assumption|exact HC].
  - rewrite xor_slots_rolling. split; [reflexivity|].
    intros b' Hb' Hnz. rewrite (slots_ext s) by reflexivity. cbn [chk_blocks] in *. unfold nthN in *.
    destruct (N.eq_dec b' b) as [->|Hne].
    + rewrite set_nth_same. reflexivity.
    + rewrite set_nth_other in * by lia.
      destruct (N.ltb_spec b' (lenN (chk_blocks s))) as [Hlt|Hge].
      * apply HC; assumption.
      * unfold lenN in Hge. rewrite nth_overflow in Hnz by lia. congruence.
Qed.

(* it writes chk_blocks only, which neither [ignored] nor [dbc] nor [page_chk] reads *)
Lemma block_chk_pre s b pN new : Pre s pN new ->
  Pre (snd (block_chk s b)) pN new /\ forall p, eff (snd (block_chk s b)) pN new p = eff s pN new p.
Proof.
  intros HP. pose proof (proj2 (block_chk_spec s b (cache_ok _ _ _ HP))) as HC. revert HC.
  unfold block_chk. destruct (_ && _); cbn [snd]; intros HC.
  - split; [exact HP|reflexivity].
  - split; [exact (Build_Pre _ _ _ HC (tail_zero _ _ _ HP) (lock_zero _ _ _ HP))|reflexivity].
Qed.

Lemma block_of_in b p : b * B + 1 <= p < b * B + 1 + B -> block_of p = b.
Proof.
  intros H. unfold block_of. pose proof blocksize_pos.
  symmetry. apply N.div_unique with (r := p - 1 - b * B); lia.
Qed.

Lemma eff_eq s pN new p : eff s pN new p =
  if p =? lockpg s then 0 else if pN <? p then 0 else
  match alookup p new with
  | Some v => v
  | None => match alookup p (wal_chk s) with
            | Some l => match last_or0 l with Some v => v | None => dbc s p end
            | None => dbc s p
            end
  end.
Proof.
  unfold eff, page_chk, dbc. destruct (p =? lockpg s); [reflexivity|]. destruct (pN <? p); [reflexivity|].
  destruct (alookup p new); [reflexivity|]. destruct (alookup p (wal_chk s)) as [l|]; [destruct (last_or0 l)|]; reflexivity.
Qed.
(* pageChecksum without a transaction in flight, for a page of the database *)
Lemma eff_cases s pN x : x <> lockpg s -> x <= pN ->
  eff s pN [] x = match alookup x (wal_chk s) with
                  | Some l => match last_or0 l with Some c => c | None => dbc s x end
                  | None => dbc s x
                  end.
Proof.
  intros Hnl Hle. rewrite eff_eq, (proj2 (N.eqb_neq _ _) Hnl), (proj2 (N.ltb_ge _ _) Hle). reflexivity.
Qed.

(* a page beyond the size counts as 0: the sums below may run over whole blocks *)
Lemma eff_beyond s pN new p : pN < p -> eff s pN new p = 0.
Proof. intros H. rewrite eff_eq. destruct (p =? lockpg s); [reflexivity|]. destruct (N.ltb_spec pN p); [reflexivity|lia]. Qed.
Lemma rolling_beyond s pN new n a x : pN < a -> rolling (fl x) (map (eff s pN new) (seqN a n)) = fl x.
Proof. intros Ha. apply rolling_zeros. intros p Hp. apply seqN_in in Hp. apply eff_beyond. lia. Qed.

(* the per-page loop: it stops at the size, where the rolling checksum over the zeros beyond would not move either *)
Lemma sum_pages_beyond s pN new n pgno acc : pN < pgno -> sum_pages s pN new pgno n acc = Some acc.
Proof. intros H. apply N.ltb_lt in H. destruct n; cbn [sum_pages]; [reflexivity|rewrite H; reflexivity]. Qed.
Lemma sum_pages_some s pN new : forall n pgno acc r,
  sum_pages s pN new pgno n acc = Some r -> pgno <= pN -> r = rolling acc (map (eff s pN new) (seqN pgno n)).
Proof.
  induction n as [|n IH]; intros pgno acc r H Hle; cbn [sum_pages] in H; [injection H as <-; reflexivity|].
  destruct (N.ltb_spec pN pgno); [lia|].
  destruct (page_chk s pgno pN new) as [c ok] eqn:Ep. destruct ok; [|discriminate].
  cbn [seqN map]. rewrite rolling_cons. unfold eff at 1. rewrite Ep. cbn [fst].
  destruct (N.le_gt_cases (pgno + 1) pN) as [Hn|Hn]; [exact (IH _ _ _ H Hn)|].
  rewrite (sum_pages_beyond s pN new n _ _ Hn) in H. injection H as <-.
  symmetry. apply rolling_beyond. exact Hn.
Qed.

Lemma block_start_le pN b : 1 <= pN -> b <= block_of pN -> b * B + 1 <= pN.
Proof.
  intros HpN Hb. unfold block_of in Hb. pose proof blocksize_pos.
  pose proof (N.mul_div_le (pN - 1) B). pose proof (N.mul_le_mono_r _ _ B Hb). lia.
Qed.
Lemma block_end_ge pN : pN <= (block_of pN + 1) * B.
Proof.
  unfold block_of. pose proof blocksize_pos.
  pose proof (N.div_mod (pN - 1) B). pose proof (N.mod_lt (pN - 1) B). lia.
Qed.

(* a block taken from the cache holds, slot by slot, what the page loop would have summed: the lock page's slot and the
   slots past the size are 0, and no other page of it has an entry in the new or the committed WAL checksums *)
Lemma slots_eff s pN new b :
  Pre s pN new -> ignored s new (block_of pN + 1) b = false -> b < block_of pN + 1 ->
  slots s b = map (eff s pN new) (seqN (b * B + 1) (N.to_nat B)).
Proof.
  intros HP Hig Hb. apply map_ext_in. intros p Hp. apply seqN_in in Hp.
  rewrite <- (block_of_in b p) in Hig, Hb by lia. rewrite eff_eq.
  destruct (N.eqb_spec p (lockpg s)) as [->|_]; [exact (lock_zero _ _ _ HP)|].
  destruct (N.ltb_spec pN p) as [Hgt|_]; [exact (tail_zero _ _ _ HP p Hgt Hb Hig)|].
  destruct (alookup p new) eqn:En.
  { rewrite (ignored_of_key s new _ p) in Hig; [discriminate|left; congruence|exact Hb]. }
  destruct (alookup p (wal_chk s)) eqn:Ew; [|reflexivity].
  rewrite (ignored_of_key s new _ p) in Hig; [discriminate|right; congruence|exact Hb].
Qed.

Lemma sum_blocks_some pN new : forall n s b acc r s',
  Pre s pN new -> 1 <= pN -> b + N.of_nat n = block_of pN + 1 ->
  sum_blocks s pN new (block_of pN + 1) b n acc = (Some r, s') ->
  r = rolling acc (map (eff s pN new) (seqN (b * B + 1) (n * N.to_nat B))).
Proof.
  pose proof blocksize_pos as HB.
  induction n as [|n IH]; intros s b acc r s' HP HpN Hbn H; cbn [sum_blocks] in H.
  - injection H as <- _. reflexivity.
  - assert (Hblt : b < block_of pN + 1) by lia.
    assert (HbB : b * B + 1 <= pN) by (apply block_start_le; lia).
    cbn [Nat.mul]. rewrite seqN_app, map_app, rolling_app.
    replace (b * B + 1 + N.of_nat (N.to_nat B)) with ((b + 1) * B + 1) by lia.
    destruct (ignored s new (block_of pN + 1) b) eqn:Hig.
    + destruct (sum_pages s pN new (b * B + 1) (N.to_nat B) acc) as [a2|] eqn:Esp; [|discriminate].
      rewrite <- (sum_pages_some _ _ _ _ _ _ _ Esp HbB). apply (IH s (b + 1) a2 r s' HP HpN); [lia|exact H].
    + destruct (block_chk_spec s b (cache_ok _ _ _ HP)) as [Hv _]. destruct (block_chk_pre s b pN new HP) as [HP2 Heq].
      destruct (block_chk s b) as [bc s2]. cbn [fst snd] in Hv, HP2, Heq.
      rewrite rolling_fl, N.lxor_0_l in Hv by apply slots_nonempty.
      assert (bc <> 0) as Hnz by (rewrite Hv; apply fl_nonzero).
      apply N.eqb_neq in Hnz. rewrite Hnz in H.
      rewrite <- (slots_eff s pN new b HP Hig Hblt), (rolling_fl (slots s b)), <- fl_absorb_r, <- Hv by apply slots_nonempty.
      rewrite <- (map_ext _ _ Heq). apply (IH s2 (b + 1) _ r s' HP2 HpN); [lia|exact H].
Qed.

Theorem checksum_is_scratch s pN new c s' :
  Pre s pN new -> checksum s pN new = (Some c, s') -> c = scratch (eff s pN new) pN.
Proof.
  intros HP H. unfold checksum in H. destruct (N.eqb_spec pN 0) as [->|Hnz].
  - injection H as <- _. unfold scratch. cbn. unfold fl. rewrite N.lor_0_r. reflexivity.
  - rewrite (sum_blocks_some pN new (N.to_nat (block_of pN + 1)) s 0 0 c s' HP); [|lia|lia|exact H].
    (* the blocks cover pages 1..pN and some beyond, which count as 0 *)
    pose proof (block_end_ge pN) as Hend. rewrite N.mul_0_l, N.add_0_l, <- N2Nat.inj_mul.
    replace (N.to_nat ((block_of pN + 1) * B)) with (N.to_nat pN + (N.to_nat ((block_of pN + 1) * B) - N.to_nat pN))%nat by lia.
    rewrite seqN_app, map_app, rolling_app.
    rewrite (rolling_fl (map (eff s pN new) (seqN 1 (N.to_nat pN)))) by (destruct (N.to_nat pN) eqn:E; [lia|discriminate]).
    rewrite N.lxor_0_l. apply rolling_beyond. lia.
Qed.

Lemma dbc_set s p v q : 1 <= p -> 1 <= q ->
  dbc (set_page_chk s p v) q = if q =? p then (if p =? lockpg s then 0 else v) else dbc s q.
Proof.
  intros Hp Hq. unfold dbc, db_page_chk, set_page_chk, nthN. cbn [chk_pages].
  destruct (N.eqb_spec q p) as [->|Hne].
  - apply set_nth_same.
  - apply set_nth_other. lia.
Qed.

Lemma lockpg_set s p v : lockpg (set_page_chk s p v) = lockpg s.
Proof. reflexivity. Qed.
Lemma walchk_set s p v : wal_chk (set_page_chk s p v) = wal_chk s.
Proof. reflexivity. Qed.

Lemma blocks_set s p v : chk_blocks (set_page_chk s p v) =
  if block_of p <? lenN (chk_blocks s) then set_nth (chk_blocks s) (N.to_nat (block_of p)) 0 else chk_blocks s.
Proof. reflexivity. Qed.

Lemma set_page_chk_cacheok s p v : 1 <= p -> CacheOK s -> CacheOK (set_page_chk s p v).
Proof.
  intros Hp HC b Hb Hnz. pose proof blocksize_pos as HB.
  assert (Hslots : block_of p <> b -> slots (set_page_chk s p v) b = slots s b).
  { intros Hne. unfold slots. apply map_ext_in. intros q Hq. apply seqN_in in Hq.
    rewrite dbc_set by lia. destruct (N.eqb_spec q p) as [->|_]; [|reflexivity].
    exfalso. apply Hne. apply block_of_in. lia. }
  rewrite blocks_set in Hb, Hnz |- *.
  destruct (N.ltb_spec (block_of p) (lenN (chk_blocks s))) as [Hlt|Hge].
  - unfold nthN in *. destruct (N.eq_dec b (block_of p)) as [->|Hne].
    + rewrite set_nth_same in Hnz. congruence.
    + rewrite set_nth_other in Hnz |- * by lia.
      unfold lenN in Hb. rewrite set_nth_keeps_length in Hb by (unfold lenN in Hlt; lia).
      rewrite Hslots by congruence. apply HC; assumption.
  - rewrite Hslots by lia. apply HC; assumption.
Qed.

(* every field but the database file and the two checksum caches *)
Record Frame (s s' : st) : Prop := {
  fr_writeable : writeable s' = writeable s; fr_lockpg : lockpg s' = lockpg s; fr_pageN : pageN s' = pageN s;
  fr_wal_mode : wal_mode s' = wal_mode s; fr_wal_chk : wal_chk s' = wal_chk s; fr_wal_latest : wal_latest s' = wal_latest s;
  fr_wal_file : wal_file s' = wal_file s; fr_dirty : dirty s' = dirty s; fr_txid : txid s' = txid s; fr_chk : chk s' = chk s;
  fr_ltxdir : ltxdir s' = ltxdir s }.

Lemma frame_refl s : Frame s s.
Proof. constructor; reflexivity. Qed.
Lemma frame_trans a b c : Frame a b -> Frame b c -> Frame a c.
Proof. intros [] []. constructor; congruence. Qed.
Lemma frame_set_page_chk s p v : Frame s (set_page_chk s p v).
Proof. constructor; reflexivity. Qed.
Lemma dbc_overflow s q : lenN (chk_pages s) < q -> dbc s q = 0.
Proof. intros H. unfold dbc, db_page_chk, nthN, lenN in *. apply nth_overflow. lia. Qed.

Lemma dbc_nopages s p : chk_pages s = [] -> dbc s p = 0.
Proof. intros E. unfold dbc, db_page_chk, nthN. rewrite E. destruct (N.to_nat (p - 1)); reflexivity. Qed.
Lemma cacheok_noblocks s : chk_blocks s = [] -> CacheOK s.
Proof. intros E b Hb. rewrite E in Hb. unfold lenN in Hb. cbn in Hb. lia. Qed.

(* the two clearing loops, resetDatabasePageChecksumsAfter and the one in CommitJournal that leaves the lock page alone,
   are one loop over the turn [g]; a turn zeroes a slot, or it is the lock page's, which is zero already *)
Definition clear_loop (g : st -> N -> st) : st -> nat -> N -> st :=
  fix go (s : st) (fuel : nat) (i : N) : st :=
    match fuel with
    | O => s
    | S f => if i <? lenN (chk_pages s) then go (g s (i + 1)) f (i + 1) else s
    end.
Definition clears (g : st -> N -> st) : Prop := forall s p, g s p = set_page_chk s p 0 \/ (p = lockpg s /\ g s p = s).
Lemma clears_all : clears (fun s p => set_page_chk s p 0).
Proof. intros s p. auto. Qed.
Lemma clears_but_lock : clears (fun s p => if p =? lockpg s then s else set_page_chk s p 0).
Proof. intros s p. destruct (N.eqb_spec p (lockpg s)); auto. Qed.

Lemma clear_loop_keeps g : clears g -> forall fuel s i,
  Frame s (clear_loop g s fuel i) /\ dbfile (clear_loop g s fuel i) = dbfile s.
Proof.
  intros Hg. induction fuel as [|fuel IH]; intros s i; cbn [clear_loop]; [split; [apply frame_refl|reflexivity]|].
  destruct (i <? lenN (chk_pages s)); [|split; [apply frame_refl|reflexivity]].
  destruct (IH (g s (i + 1)) (i + 1)) as [F D]. rewrite D.
  assert (Frame s (g s (i + 1)) /\ dbfile (g s (i + 1)) = dbfile s) as [F1 D1].
  { destruct (Hg s (i + 1)) as [->|[_ ->]]; (split; [|reflexivity]); [apply frame_set_page_chk|apply frame_refl]. }
  split; [exact (frame_trans _ _ _ F1 F)|exact D1].
Qed.

Lemma clear_loop_spec g : clears g -> forall fuel s i,
  (length (chk_pages s) - N.to_nat i <= fuel)%nat -> CacheOK s -> LockZero s -> 1 <= lockpg s ->
  let s' := clear_loop g s fuel i in
  CacheOK s' /\ LockZero s' /\ (forall q, 1 <= q -> dbc s' q = if q <=? i then dbc s q else 0).
Proof.
  intros Hg. induction fuel as [|fuel IH]; intros s i Hf HC HL Hlk; cbn [clear_loop].
  - split; [exact HC|]. split; [exact HL|]. intros q Hq.
    destruct (N.leb_spec q i); [reflexivity|]. apply dbc_overflow. unfold lenN. lia.
  - destruct (N.ltb_spec i (lenN (chk_pages s))) as [Hlt|Hge].
    + 
      assert (CacheOK (g s (i + 1)) /\ LockZero (g s (i + 1)) /\ lockpg (g s (i + 1)) = lockpg s /\
              length (chk_pages (g s (i + 1))) = length (chk_pages s) /\
              forall q, 1 <= q -> dbc (g s (i + 1)) q = if q =? i + 1 then 0 else dbc s q) as [C1 [L1 [El [E1 D1]]]].
      { destruct (Hg s (i + 1)) as [->|[Ei ->]].
        - assert (Hd : forall q, 1 <= q -> dbc (set_page_chk s (i + 1) 0) q = if q =? i + 1 then 0 else dbc s q).
          { intros q Hq. rewrite dbc_set by lia. destruct (q =? i + 1); [|reflexivity]. destruct (i + 1 =? lockpg s); reflexivity. }
          split; [apply set_page_chk_cacheok; [lia|exact HC]|]. split; [|split; [reflexivity|split; [|exact Hd]]].
          + unfold LockZero. cbn [lockpg set_page_chk]. rewrite Hd by exact Hlk. destruct (lockpg s =? i + 1); [reflexivity|exact HL].
          + cbn [chk_pages set_page_chk]. apply set_nth_keeps_length. unfold lenN in Hlt. lia.
        - repeat split; try assumption. intros q Hq. rewrite Ei. destruct (N.eqb_spec q (lockpg s)) as [->|_]; [exact HL|reflexivity]. }
      destruct (IH (g s (i + 1)) (i + 1)) as [C2 [L2 D2]]; [lia|exact C1|exact L1|rewrite El; exact Hlk|].
      split; [exact C2|]. split; [exact L2|]. intros q Hq. rewrite D2, D1 by exact Hq. clear.
      destruct (N.leb_spec q (i + 1)), (N.leb_spec q i), (N.eqb_spec q (i + 1)); try lia; reflexivity.
    + split; [exact HC|]. split; [exact HL|]. intros q Hq.
      destruct (N.leb_spec q i); [reflexivity|]. apply dbc_overflow. lia.
Qed.

Lemma frame_clear_from fuel s i : Frame s (clear_from s fuel i).
Proof. exact (proj1 (clear_loop_keeps _ clears_all fuel s i)). Qed.
Lemma dbfile_clear_from fuel s i : dbfile (clear_from s fuel i) = dbfile s.
Proof. exact (proj2 (clear_loop_keeps _ clears_all fuel s i)). Qed.
Lemma clear_from_spec fuel s i :
  (length (chk_pages s) - N.to_nat i <= fuel)%nat -> CacheOK s -> LockZero s -> 1 <= lockpg s ->
  let s' := clear_from s fuel i in
  CacheOK s' /\ LockZero s' /\ (forall q, 1 <= q -> dbc s' q = if q <=? i then dbc s q else 0).
Proof. exact (clear_loop_spec _ clears_all fuel s i). Qed.
Lemma frame_clear_after_commit fuel s i : Frame s (clear_after_commit s fuel i).
Proof. exact (proj1 (clear_loop_keeps _ clears_but_lock fuel s i)). Qed.
Lemma dbfile_clear_after_commit fuel s i : dbfile (clear_after_commit s fuel i) = dbfile s.
Proof. exact (proj2 (clear_loop_keeps _ clears_but_lock fuel s i)). Qed.
Lemma clear_after_commit_spec fuel s i :
  (length (chk_pages s) - N.to_nat i <= fuel)%nat -> CacheOK s -> LockZero s -> 1 <= lockpg s ->
  let s' := clear_after_commit s fuel i in
  CacheOK s' /\ LockZero s' /\ (forall q, 1 <= q -> dbc s' q = if q <=? i then dbc s q else 0).
Proof. exact (clear_loop_spec _ clears_but_lock fuel s i). Qed.

Lemma frame_write_db_page s p q : Frame s (write_db_page s p q).
Proof. constructor; reflexivity. Qed.
Lemma frame_fold_write : forall pages s, Frame s (fold_left (fun a kv => write_db_page a (fst kv) (snd kv)) pages s).
Proof.
  induction pages as [|kv r IH]; intros s; cbn [fold_left]; [apply frame_refl|].
  eapply frame_trans; [apply (frame_write_db_page s (fst kv) (snd kv))|apply IH].
Qed.
Lemma frame_truncate_db s n : Frame s (truncate_db s n).
Proof.
  unfold truncate_db, reset_after.
  eapply frame_trans; [|apply frame_clear_from]. constructor; reflexivity.
Qed.

Lemma checkpoint_keeps s : let s' := snd (op_checkpoint s) in
  writeable s' = writeable s /\ lockpg s' = lockpg s /\ wal_mode s' = wal_mode s /\ dirty s' = dirty s /\
  txid s' = txid s /\ chk s' = chk s /\ ltxdir s' = ltxdir s.
Proof.
  unfold op_checkpoint. destruct (wal_committed _ _ _ _) as [pages lastc]. cbn [snd].
  destruct pages as [|kv pages]; [cbn; auto 8|].
  destruct (frame_trans _ _ _ (frame_fold_write (kv :: pages) s) (frame_truncate_db _ lastc)).
  cbn [writeable lockpg wal_mode dirty txid chk ltxdir with_wal with_pos]. auto 8.
Qed.

(* checksum() changes the state through blockChksum only: what a relation on states needs in order to hold across it *)
Lemma checksum_state (P : st -> st -> Prop) :
  (forall s, P s s) -> (forall a b c, P a b -> P b c -> P a c) -> (forall s b, P s (snd (block_chk s b))) ->
  forall s pN new, P s (snd (checksum s pN new)).
Proof.
  intros Hr Ht Hb s0 pN new. unfold checksum. destruct (pN =? 0); [apply Hr|].
  generalize (block_of pN + 1) as blockN. intros blockN.
  assert (forall n s b acc, P s (snd (sum_blocks s pN new blockN b n acc))) as G; [|apply G].
  induction n as [|n IH]; intros s b acc; cbn [sum_blocks]; [apply Hr|].
  destruct (ignored s new blockN b).
  - destruct (sum_pages s pN new (b * B + 1) (N.to_nat B) acc); [apply IH|apply Hr].
  - specialize (Hb s b). destruct (block_chk s b) as [bc s2]. cbn [snd] in Hb. destruct (bc =? 0).
    + destruct (sum_pages s2 pN new (b * B + 1) (N.to_nat B) acc); [exact (Ht _ _ _ Hb (IH _ _ _))|exact Hb].
    + exact (Ht _ _ _ Hb (IH _ _ _)).
Qed.

Lemma checksum_keeps s pN new : let s' := snd (checksum s pN new) in
  Frame s s' /\ dbfile s' = dbfile s /\ chk_pages s' = chk_pages s /\ (CacheOK s -> CacheOK s').
Proof.
  apply (checksum_state (fun a b => Frame a b /\ dbfile b = dbfile a /\ chk_pages b = chk_pages a /\ (CacheOK a -> CacheOK b))).
  - intros a. split; [apply frame_refl|auto].
  - intros a b c [F1 [D1 [P1 C1]]] [F2 [D2 [P2 C2]]]. split; [exact (frame_trans _ _ _ F1 F2)|]. split; [congruence|]. split; [congruence|auto].
  - intros a b. assert (CacheOK a -> CacheOK (snd (block_chk a b))) as HC by apply block_chk_spec. revert HC.
    unfold block_chk. destruct (_ && _); cbn [snd]; intros HC; (split; [constructor; reflexivity|auto]).
Qed.
Lemma frame_checksum s pN new : Frame s (snd (checksum s pN new)).
Proof. apply checksum_keeps. Qed.
Lemma dbfile_checksum s pN new : dbfile (snd (checksum s pN new)) = dbfile s.
Proof. apply checksum_keeps. Qed.
Lemma checksum_result s pN new r s' : checksum s pN new = (r, s') ->
  Frame s s' /\ dbfile s' = dbfile s /\ (forall p, dbc s' p = dbc s p) /\ (CacheOK s -> CacheOK s').
Proof.
  intros E. pose proof (checksum_keeps s pN new) as H. rewrite E in H. cbn [snd] in H. destruct H as [F [D [P C]]].
  unfold dbc, db_page_chk. rewrite P. auto.
Qed.

Definition file_h (s : st) (p : N) : N := match file_pg s p with Some q => pg_h q | None => 0 end.
(* the per-page checksum CommitJournal works with: the cached one, or for a page inside the grown database
   that never passed through WriteDatabaseAt the checksum of what the file holds *)
Definition jc (s : st) (p : N) : N := if unwritten s p then file_h s p else dbc s p.

Lemma file_h_nofile s p : dbfile s = [] -> file_h s p = 0.
Proof. intros E. unfold file_h, file_pg. rewrite E. destruct (N.to_nat (p - 1)); reflexivity. Qed.

Lemma unwritten_pos s p : unwritten s p = true -> 1 <= p.
Proof. unfold unwritten. intros H. apply andb_true_iff in H. destruct H as [H _]. apply N.ltb_lt in H. lia. Qed.

Lemma file_h_dbfile s s' : dbfile s' = dbfile s -> forall p, file_h s' p = file_h s p.
Proof. intros E p. unfold file_h, file_pg. rewrite E. reflexivity. Qed.

(* what the loop does to the state at one page: an unwritten page gets the checksum of what the file holds *)
Definition jstep (s : st) (p : N) : st := if unwritten s p then set_page_chk s p (file_h s p) else s.

Lemma frame_jstep s p : Frame s (jstep s p).
Proof. unfold jstep. destruct (unwritten s p); [apply frame_set_page_chk|apply frame_refl]. Qed.
Lemma dbfile_jstep s p : dbfile (jstep s p) = dbfile s.
Proof. unfold jstep. destruct (unwritten s p); reflexivity. Qed.
Lemma jstep_cacheok s p : CacheOK s -> CacheOK (jstep s p).
Proof.
  intros HC. unfold jstep. destruct (unwritten s p) eqn:Eu; [|exact HC].
  apply set_page_chk_cacheok; [exact (unwritten_pos s p Eu)|exact HC].
Qed.
Lemma dbc_jstep s p q : p <> lockpg s -> 1 <= q -> dbc (jstep s p) q = if q =? p then jc s p else dbc s q.
Proof.
  intros Hnl Hq. unfold jstep, jc. destruct (unwritten s p) eqn:Eu.
  - rewrite dbc_set by (exact Hq || exact (unwritten_pos s p Eu)).
    destruct (N.eqb_spec p (lockpg s)); [contradiction|reflexivity].
  - destruct (N.eqb_spec q p) as [->|_]; reflexivity.
Qed.
(* the step does not change what CommitJournal works with: at the page itself the slot now holds that value *)
Lemma jc_jstep s p q : p <> lockpg s -> 1 <= q -> jc (jstep s p) q = jc s q.
Proof.
  intros Hnl Hq. unfold jc at 1, unwritten. fold (dbc (jstep s p) q).
  rewrite (fr_pageN _ _ (frame_jstep s p)), (file_h_dbfile _ _ (dbfile_jstep s p)), dbc_jstep by assumption.
  destruct (N.eqb_spec q p) as [->|_]; [|reflexivity].
  destruct (pageN s <? p) eqn:E1; [|reflexivity]. destruct (jc s p =? 0) eqn:E2; [|reflexivity]. apply N.eqb_eq in E2.
  revert E2. unfold jc, unwritten. fold (dbc s p). rewrite E1.
  destruct (N.eqb_spec (dbc s p) 0); cbn [andb]; [reflexivity|contradiction].
Qed.

Lemma journal_pages_cons s commit p r pages s2 : journal_pages s commit (p :: r) = (Some pages, s2) ->
  if p =? lockpg s then journal_pages s commit r = (Some pages, s2)
  else exists q l, file_pg s p = Some q /\ pages = (p, q) :: l /\ journal_pages (jstep s p) commit r = (Some l, s2).
Proof.
  cbn [journal_pages]. destruct (p =? lockpg s); [auto|]. unfold jstep, file_h.
  destruct (file_pg s p) as [q|]; [|discriminate].
  destruct (page_chk _ p commit []) as [c ok]. destruct (ok && (c =? pg_h q)); [|discriminate].
  destruct (journal_pages _ commit r) as [[l|] s2']; [|discriminate].
  intros H. injection H as <- <-. exists q, l. auto.
Qed.

Lemma journal_pages_some commit : forall pgnos s pages s2,
  journal_pages s commit pgnos = (Some pages, s2) ->
  Frame s s2 /\ dbfile s2 = dbfile s /\ (CacheOK s -> CacheOK s2) /\
  (forall q, 1 <= q -> dbc s2 q = if existsb (N.eqb q) pgnos && negb (q =? lockpg s) then jc s q else dbc s q) /\
  map fst pages = filter (fun p => negb (p =? lockpg s)) pgnos /\
  (forall p q, In (p, q) pages -> file_pg s p = Some q).
Proof.
  induction pgnos as [|p r IH]; intros s pages s2 H.
  - cbn [journal_pages] in H. injection H as <- <-. split; [apply frame_refl|]. split; [reflexivity|]. split; [auto|].
    split; [reflexivity|]. split; [reflexivity|intros p q []].
  - apply journal_pages_cons in H. cbn [existsb filter]. destruct (N.eqb_spec p (lockpg s)) as [El|Enl]; cbn [negb].
    + destruct (IH _ _ _ H) as [F [D [HC [HD HM]]]]. repeat (split; [assumption|]). split; [|exact HM].
      intros q Hq. rewrite (HD q Hq). destruct (N.eqb_spec q p) as [->|_]; [|reflexivity].
      rewrite El, N.eqb_refl, !andb_false_r. reflexivity.
    + destruct H as (q0 & l & Ef & -> & H). destruct (IH _ _ _ H) as [F [D [HC [HD [HM HP]]]]].
      rewrite (fr_lockpg _ _ (frame_jstep s p)) in HD, HM.
      split; [exact (frame_trans _ _ _ (frame_jstep s p) F)|]. split; [rewrite D; apply dbfile_jstep|].
      split; [intros HC0; apply HC, jstep_cacheok, HC0|]. split; [|split; [cbn [map fst]; rewrite HM; reflexivity|]].
      * intros q Hq. rewrite (HD q Hq), jc_jstep, dbc_jstep by assumption.
        destruct (N.eqb_spec q p) as [->|_]; [|reflexivity].
        destruct (N.eqb_spec p (lockpg s)); [contradiction|]. cbn [orb negb]. rewrite andb_true_r.
        destruct (existsb (N.eqb p) r); reflexivity.
      * intros p' q' [E|Hin]; [injection E as <- <-; exact Ef|].
        rewrite <- (HP _ _ Hin). unfold file_pg. rewrite dbfile_jstep. reflexivity.
Qed.
Lemma frame_journal_pages commit pgnos s pages s2 : journal_pages s commit pgnos = (Some pages, s2) -> Frame s s2.
Proof. intros H. apply (journal_pages_some _ _ _ _ _ H). Qed.
Lemma dbfile_journal_pages commit pgnos s pages s2 : journal_pages s commit pgnos = (Some pages, s2) -> dbfile s2 = dbfile s.
Proof. intros H. apply (journal_pages_some _ _ _ _ _ H). Qed.

Lemma journal_pgnos_unwritten s commit p :
  unwritten s p = true -> p <= commit -> existsb (N.eqb p) (journal_pgnos s commit) = true.
Proof.
  intros Hu Hp. apply existsb_exists. exists p. split; [|apply N.eqb_refl].
  unfold journal_pgnos. apply in_or_app. right. rewrite upfrom_seqN. apply seqN_in.
  unfold unwritten in Hu. apply andb_true_iff in Hu. destruct Hu as [Hu _]. apply N.ltb_lt in Hu. lia.
Qed.

Lemma op_commit_journal_inv s c s' : op_commit_journal s c = (Done, s') ->
  writeable s = true /\ exists pages sj post s2,
    journal_pages (with_wal s [] (wal_latest s) (wal_file s)) c (journal_pgnos s c) = (Some pages, sj) /\
    checksum (clear_after_commit sj (length (chk_pages sj)) c) c [] = (Some post, s2) /\
    s' = with_dirty (with_pos s2 c (match alookup 1 pages with Some q => pg_wal q | None => false end)
                       (txid s + 1) post (ltxdir s ++ [new_ltx s c post pages])) [].
Proof.
  unfold op_commit_journal. destruct (writeable s); cbn [negb]; [|discriminate].
  destruct (journal_pages _ c _) as [[pages|] sj] eqn:Ej; [|discriminate].
  destruct (checksum _ c []) as [[post|] s2] eqn:Eck; [|discriminate].
  intros H. injection H as <-. split; [reflexivity|]. exists pages, sj, post, s2. auto.
Qed.

(* CommitJournal: the reported checksum is the from-scratch XOR of the per-page checksums of pages 1..commit
   (lock page excluded): the cached ones, and for pages the transaction never wrote what the file holds *)
Theorem commit_journal_checksum s commit s' :
  CacheOK s -> LockZero s -> 1 <= lockpg s -> op_commit_journal s commit = (Done, s') ->
  chk s' = scratch (fun p => if p =? lockpg s then 0 else jc s p) commit /\
  txid s' = txid s + 1 /\ pageN s' = commit /\ dirty s' = [] /\
  CacheOK s' /\ LockZero s' /\ (forall p, commit < p -> dbc s' p = 0) /\
  (forall p, 1 <= p <= commit -> p <> lockpg s -> dbc s' p = jc s p).
Proof.
  intros HC HL Hlk H. apply op_commit_journal_inv in H. destruct H as (_ & pages & sj & post & s2 & Ej & Eck & ->).
  destruct (journal_pages_some _ _ _ _ _ Ej) as [Fj [_ [HCj [Hj _]]]]. cbn [lockpg with_wal] in Hj.
  assert (lockpg sj = lockpg s) as Elj by apply Fj.
  assert (LockZero sj) as HLj.
  { unfold LockZero. rewrite Elj, Hj by exact Hlk. rewrite N.eqb_refl, andb_false_r. exact HL. }
  destruct (clear_after_commit_spec (length (chk_pages sj)) sj commit ltac:(lia) (HCj HC) HLj ltac:(lia)) as [C1 [L1 D1]].
  pose proof (frame_clear_after_commit (length (chk_pages sj)) sj commit) as F1.
  set (s1 := clear_after_commit sj (length (chk_pages sj)) commit) in *.
  (* the slots when checksum() runs: the page loop has visited every unwritten page within the new size *)
  assert (Hin : forall p, 1 <= p <= commit -> p <> lockpg s -> dbc s1 p = jc s p).
  { intros p Hp Hnl. rewrite D1, (proj2 (N.leb_le _ _) (proj2 Hp)), Hj by lia.
    destruct (N.eqb_spec p (lockpg s)); [contradiction|]. cbn [negb]. rewrite andb_true_r.
    destruct (unwritten s p) eqn:Eu.
    - rewrite (journal_pgnos_unwritten s commit p Eu) by lia. reflexivity.
    - destruct (existsb _ _); [reflexivity|]. unfold jc. rewrite Eu. reflexivity. }
  assert (Hout : forall p, commit < p -> dbc s1 p = 0).
  { intros p Hp. rewrite D1, (proj2 (N.leb_gt _ _) Hp) by lia. reflexivity. }
  assert (Pre s1 commit []) as HP by (apply pre_intro; [exact C1|exact L1|intros p Hp; left; exact (Hout p Hp)]).
  destruct (checksum_result _ _ _ _ _ Eck) as [F2 [_ [Hd2 HC2]]].
  cbn [chk txid pageN dirty with_dirty with_pos].
  split.
  { rewrite (checksum_is_scratch s1 commit [] post s2 HP Eck). apply scratch_ext. intros p Hp.
    rewrite eff_eq, (fr_wal_chk _ _ F1), (fr_wal_chk _ _ Fj), (fr_lockpg _ _ F1), Elj, (proj2 (N.ltb_ge _ _) (proj2 Hp)).
    destruct (N.eqb_spec p (lockpg s)) as [_|Hnl]; [reflexivity|exact (Hin p Hp Hnl)]. }
  split; [reflexivity|]. split; [reflexivity|]. split; [reflexivity|]. split; [exact (HC2 C1)|].
  split. { unfold LockZero in L1. rewrite <- (fr_lockpg _ _ F2) in L1. exact (eq_trans (Hd2 _) L1). }
  split.
  - intros p Hp. exact (eq_trans (Hd2 p) (Hout p Hp)).
  - intros p Hp Hnl. exact (eq_trans (Hd2 p) (Hin p Hp Hnl)).
Qed.

Corollary commit_journal_unwritten s commit s' :
  CacheOK s -> LockZero s -> 1 <= lockpg s -> op_commit_journal s commit = (Done, s') ->
  forall p, unwritten s p = true -> p <= commit -> p <> lockpg s -> dbc s' p = file_h s p.
Proof.
  intros HC HL Hlk H p Hu Hp Hnl.
  destruct (commit_journal_checksum s commit s' HC HL Hlk H) as [_ [_ [_ [_ [_ [_ [_ Hd]]]]]]].
  rewrite Hd; [|split; [apply (unwritten_pos s); assumption|assumption]|assumption]. unfold jc. rewrite Hu. reflexivity.
Qed.

Lemma truncated_pages_spec s : forall n start new0 new,
  truncated_pages s start n new0 = Some new ->
  (forall p, p < start -> alookup p new = alookup p new0) /\
  (forall p, start <= p <= pageN s -> p < start + N.of_nat n -> p <> lockpg s -> alookup p new <> None).
Proof.
  induction n as [|n IH]; intros start new0 new H; cbn [truncated_pages] in H.
  - injection H as <-. split; [reflexivity|]. intros p H1 H2. lia.
  - destruct (N.ltb_spec (pageN s) start) as [Hlt|Hge].
    { injection H as <-. split; [reflexivity|]. intros p H1. lia. }
    destruct (N.eqb_spec start (lockpg s)) as [El|Enl].
    + destruct (IH _ _ _ H) as [A1 A2]. split; [intros p Hp; apply A1; lia|intros p H1 H2 H3; apply A2; lia].
    + destruct (read_page s start) as [q|]; [|discriminate].
      destruct (page_chk s start (pageN s) []) as [c ok]. destruct (c =? pg_h q); [|discriminate].
      destruct (IH _ _ _ H) as [A1 A2]. split.
      * intros p Hp. rewrite A1, alookup_aput by lia. destruct (N.eqb_spec p start); [lia|reflexivity].
      * intros p H1 H2 H3. destruct (N.eq_dec p start) as [->|Hne]; [|apply A2; lia].
        rewrite A1, alookup_aput, N.eqb_refl by lia. discriminate.
Qed.

(* as CommitWAL calls it *)
Lemma truncated_pages_commit s commit new0 new :
  truncated_pages s (commit + 1) (N.to_nat (pageN s)) new0 = Some new ->
  (forall p, p <= commit -> alookup p new = alookup p new0) /\
  (forall p, commit < p <= pageN s -> p <> lockpg s -> alookup p new <> None).
Proof.
  intros H. destruct (truncated_pages_spec s _ _ _ _ H) as [T1 T2].
  split; [intros p Hp; apply T1; lia|intros p Hp Hnl; apply T2; [lia|lia|exact Hnl]].
Qed.

Definition tx_pages (s : st) (frames : list (N * pg)) (commit : N) : list (N * pg) :=
  filter (fun kv => negb (fst kv =? lockpg s) && (fst kv <=? commit)) (sort_pages (last_versions frames []) []).
Definition tx_new (s : st) (frames : list (N * pg)) (commit : N) : list (N * N) :=
  map (fun kv => (fst kv, pg_h (snd kv))) (tx_pages s frames commit).

Lemma op_commit_wal_inv s frames commit s' : op_commit_wal s frames commit = (Done, s') ->
  exists new post s1,
    truncated_pages s (commit + 1) (N.to_nat (pageN s)) (tx_new s frames commit) = Some new /\
    checksum s commit new = (Some post, s1) /\ writeable s1 = true /\
    s' = with_pos (with_wal s1 (append_chk new (wal_chk s1))
                     (merge_latest (sort_pages (last_versions frames []) []) (wal_latest s1))
                     (wal_file s1 ++ map (fun kv => (fst kv, snd kv, 0)) (removelast frames) ++
                      match rev frames with (p, q) :: _ => [(p, q, commit)] | [] => [] end))
           commit (match alookup 1 (tx_pages s frames commit) with Some q => pg_wal q | None => wal_mode s1 end)
           (txid s + 1) post (ltxdir s ++ [new_ltx s commit post (tx_pages s frames commit)]).
Proof.
  unfold op_commit_wal. fold (tx_pages s frames commit). fold (tx_new s frames commit).
  destruct (truncated_pages _ _ _ _) as [new|] eqn:Etr; [|discriminate].
  destruct (checksum s commit new) as [[post|] s1] eqn:Eck; [|discriminate].
  destruct (writeable s1) eqn:Ew; cbn [negb]; [|discriminate].
  intros H. injection H as <-. exists new, post, s1. auto.
Qed.

(* what Drop leaves: the files removed, page checksums and WAL bookkeeping forgotten, an empty file 0 pages long published *)
Definition dropped (s : st) : st :=
  with_pos (with_wal (mkSt (writeable s) (lockpg s) [] (pageN s) (wal_mode s) [] [] (wal_chk s) (wal_latest s)
                           (wal_file s) (dirty s) (txid s) (chk s) (ltxdir s)) [] [] [])
           0 false (txid s + 1) flag (ltxdir s ++ [mkLtx (txid s + 1) (txid s + 1) (chk s) flag 0 []]).
Lemma op_drop_inv s s' : op_drop s = (Done, s') -> writeable s = true /\ s' = dropped s.
Proof.
  unfold op_drop. destruct (writeable s) eqn:E; cbn [negb]; [|discriminate]. intros H. injection H as <-.
  split; [reflexivity|]. unfold dropped. rewrite E. reflexivity.
Qed.

Lemma drop_reports_empty s s' :
  op_drop s = (Done, s') -> chk s' = flag /\ txid s' = txid s + 1 /\ pageN s' = 0 /\ dbfile s' = [].
Proof. intros H. destruct (op_drop_inv s s' H) as [_ ->]. cbn. auto. Qed.

(* C04 along histories (rollback-journal mode): the per-page checksum cache agrees with the database file after every
   transaction of every history, hence every reported checksum is the from-scratch checksum of the file. *)
From Coq Require Import NArith List Lia Bool Arith.
Require Import LF.Model.PageDB LF.Proofs.XorLib LF.Proofs.ChecksumProofs LF.Proofs.CaptureProofs.
Import ListNotations.
Local Open Scope N_scope.

(* the checksum of what the file holds at an index (0 where it holds nothing) *)
Definition h_at (l : list pg) (j : nat) : N := match nth_error l j with Some q => pg_h q | None => 0 end.

Lemma file_h_h_at s p : file_h s p = h_at (dbfile s) (N.to_nat (p - 1)).
Proof. reflexivity. Qed.

(* [set_file] and [firstn] seen through a function of the page found at an index.  A write beyond the end fills the gap
   with zero_pg, so for set_file the value at an index that holds nothing has to be the one of zero_pg. *)
Lemma set_file_at {B} (f : pg -> B) : forall i l j v,
  match nth_error (set_file l i v) j with Some q => f q | None => f zero_pg end =
  if Nat.eqb j i then f v else match nth_error l j with Some q => f q | None => f zero_pg end.
Proof.
  induction i as [|i IH]; intros [|x r] [|j] v; cbn [set_file nth_error Nat.eqb]; try reflexivity.
  - destruct j; reflexivity.
  - rewrite IH. destruct (Nat.eqb j i); [reflexivity|]. destruct j; reflexivity.
  - apply IH.
Qed.
Lemma firstn_at {B} (f : pg -> B) (d : B) : forall n l j,
  match nth_error (firstn n l) j with Some q => f q | None => d end =
  if (j <? n)%nat then match nth_error l j with Some q => f q | None => d end else d.
Proof.
  induction n as [|n IH]; intros [|x r] [|j]; cbn [firstn nth_error]; try reflexivity.
  - destruct (S j <? S n)%nat; reflexivity.
  - exact (IH r j).
Qed.

Lemma set_file_h : forall i l j v, h_at (set_file l i v) j = if Nat.eqb j i then pg_h v else h_at l j.
Proof. exact (set_file_at pg_h). Qed.
Lemma firstn_h : forall n l j, h_at (firstn n l) j = if (j <? n)%nat then h_at l j else 0.
Proof. exact (firstn_at pg_h 0). Qed.

(* [s'] is any state with that file *)
Lemma file_h_set_file s s' p q x : dbfile s' = set_file (dbfile s) (N.to_nat (p - 1)) q -> 1 <= p -> 1 <= x ->
  file_h s' x = if x =? p then pg_h q else file_h s x.
Proof.
  intros E Hp Hx. rewrite !file_h_h_at, E, set_file_h.
  destruct (N.eqb_spec x p) as [->|Hne]; [rewrite Nat.eqb_refl; reflexivity|].
  destruct (Nat.eqb_spec (N.to_nat (x - 1)) (N.to_nat (p - 1))); [lia|reflexivity].
Qed.
Lemma file_h_firstn s s' n x : dbfile s' = firstn (N.to_nat n) (dbfile s) -> 1 <= x ->
  file_h s' x = if x <=? n then file_h s x else 0.
Proof.
  intros E Hx. rewrite !file_h_h_at, E, firstn_h.
  destruct (N.leb_spec x n), (Nat.ltb_spec (N.to_nat (x - 1)) (N.to_nat n)); try lia; reflexivity.
Qed.

(* page 1 of the file does not carry the WAL versions; a hole left by a write further on is [zero_pg], which does not either *)
Definition P1 (s : st) : Prop := forall q, file_pg s 1 = Some q -> pg_wal q = false.
Lemma p1_set_file s s' i q : P1 s -> pg_wal q = false -> dbfile s' = set_file (dbfile s) i q -> P1 s'.
Proof.
  unfold P1, file_pg. intros H Hq -> y. change (N.to_nat (1 - 1)) with 0%nat in *.
  destruct i, (dbfile s); cbn; intros E; inversion E; subst; auto.
Qed.
Lemma p1_firstn s s' n : P1 s -> dbfile s' = firstn n (dbfile s) -> P1 s'.
Proof.
  unfold P1, file_pg. intros H -> y. change (N.to_nat (1 - 1)) with 0%nat in *.
  destruct n, (dbfile s); cbn; intros E; inversion E; subst; auto.
Qed.

Lemma cacheok_with_file s f : CacheOK s -> CacheOK (with_file s f).
Proof. apply cacheok_ext; reflexivity. Qed.
Lemma cacheok_with_dirty s d : CacheOK s -> CacheOK (with_dirty s d).
Proof. apply cacheok_ext; reflexivity. Qed.

Lemma write_db_page_cache s p q : 1 <= p -> 1 <= lockpg s -> CacheOK s -> LockZero s ->
  let s' := write_db_page s p q in
  CacheOK s' /\ LockZero s' /\
  (forall x, 1 <= x -> dbc s' x = if x =? p then (if p =? lockpg s then 0 else pg_h q) else dbc s x) /\
  (forall x, 1 <= x -> file_h s' x = if x =? p then pg_h q else file_h s x).
Proof.
  intros Hp Hlk HC HL s'.
  assert (Hd : forall x, 1 <= x -> dbc s' x = if x =? p then (if p =? lockpg s then 0 else pg_h q) else dbc s x)
    by (intros x Hx; exact (dbc_set _ p (pg_h q) x Hp Hx)).
  split; [apply set_page_chk_cacheok; [exact Hp|apply cacheok_with_file; exact HC]|].
  split; [|split; [exact Hd|]].
  - unfold LockZero. change (lockpg s') with (lockpg s). rewrite Hd by assumption.
    destruct (N.eqb_spec (lockpg s) p) as [E|_]; [rewrite <- E, N.eqb_refl; reflexivity|exact HL].
  - intros x Hx. apply (file_h_set_file s); [reflexivity|assumption|assumption].
Qed.

(* the cache says what the file holds, or says nothing about a page beyond the database *)
Definition truth (s : st) : Prop :=
  forall x, 1 <= x -> x <> lockpg s -> dbc s x = file_h s x \/ (pageN s < x /\ dbc s x = 0).

(* the state inside a rollback-journal transaction that started at [s0]; with [k = true] the transaction keeps
   rollback-journal mode: page 1 of the file never carries the WAL versions *)
Record Mid (k : bool) (s0 s : st) : Prop := {
  m_w : writeable s = true; m_mode : wal_mode s = wal_mode s0; m_lock : lockpg s = lockpg s0; m_lk1 : 1 <= lockpg s;
  m_pn : pageN s = pageN s0; m_tx : txid s = txid s0; m_chk : chk s = chk s0;
  m_cache : CacheOK s; m_lz : LockZero s; m_truth : truth s;
  m_p1 : k = true -> forall q, file_pg s 1 = Some q -> pg_wal q = false
}.

Lemma file_pg_h s p q : file_pg s p = Some q -> file_h s p = pg_h q.
Proof. unfold file_h. intros ->. reflexivity. Qed.

(* a page written through LiteFS, whatever the dirty set becomes *)
Lemma mid_write_page k s0 s p q d : Mid k s0 s -> 1 <= p -> (k = true -> pg_wal q = false) ->
  Mid k s0 (write_db_page (with_dirty s d) p q).
Proof.
  intros [Mw Mmode Mlock Mlk Mpn Mtx Mchk Mcache Mlz Mtruth Mp1] Hp Hw.
  destruct (write_db_page_cache (with_dirty s d) p q Hp Mlk (cacheok_with_dirty s d Mcache) Mlz) as [A1 [A2 [A9 A10]]].
  cbn zeta in *. constructor; try assumption.
  - intros x Hx Hnl. rewrite A9, A10 by assumption.
    destruct (N.eqb_spec x p) as [->|Hne]; [|apply (Mtruth x Hx Hnl)].
    left. destruct (N.eqb_spec p (lockpg (with_dirty s d))); [contradiction|reflexivity].
  - intros Hk. apply (p1_set_file s _ (N.to_nat (p - 1)) q (Mp1 Hk) (Hw Hk)). reflexivity.
Qed.

Lemma mid_write k s0 s p q : Mid k s0 s -> wal_mode s0 = false -> 1 <= p -> (k = true -> pg_wal q = false) ->
  exists s', op_write_page s p q = (Done, s') /\ Mid k s0 s'.
Proof.
  intros M Hm0 Hp Hw. unfold op_write_page. rewrite (m_w k s0 s M), (m_mode k s0 s M), Hm0. cbn [negb].
  eexists. split; [reflexivity|apply mid_write_page; assumption].
Qed.

(* the file system fills a gap with zeros ([op_zero_fill]): only the file changes, and only at a page the cache knows
   nothing about *)
Lemma mid_zero_fill k s0 s p q : Mid k s0 s -> pageN s < p -> dbc s p = 0 -> (k = true -> pg_wal q = false) ->
  Mid k s0 (with_file s (set_file (dbfile s) (N.to_nat (p - 1)) q)).
Proof.
  intros [Mw Mmode Mlock Mlk Mpn Mtx Mchk Mcache Mlz Mtruth Mp1] Hp Hz Hw.
  set (s' := with_file s (set_file (dbfile s) (N.to_nat (p - 1)) q)).
  constructor; try assumption.
  - intros x Hx Hnl. change (dbc s x = file_h s' x \/ pageN s < x /\ dbc s x = 0).
    rewrite (file_h_set_file s s' p q x eq_refl (lt_ge1 _ _ Hp) Hx).
    destruct (N.eqb_spec x p) as [->|Hne]; [right; split; assumption|apply (Mtruth x Hx Hnl)].
  - intros Hk. apply (p1_set_file s s' (N.to_nat (p - 1)) q (Mp1 Hk) (Hw Hk)). reflexivity.
Qed.

Definition zf_ops (zf : list (N * pg)) : list op := map (fun kv => OZeroFill (fst kv) (snd kv)) zf.
Definition wr_ops (wr : list (N * pg)) : list op := map (fun kv => OWrite (fst kv) (snd kv)) wr.
(* what a connection does to the database file inside one transaction: page writes (new content; pre-images put back by a
   rollback) and, when it rolls back after a spill that had grown the file, the cut back to the old size *)
Inductive act :=
| AWrite (p : N) (q : pg)
| ACut
| AFail (c : N).   (* a finalisation of the journal that fails inside LiteFS before anything is published (an I/O error):
                      nothing it touched survives; SQLite then rolls back - more page writes - and finalises again *)
Definition act_ops (old : N) (acts : list act) : list op :=
  map (fun a => match a with AWrite p q => OWrite p q | ACut => OTruncate old | AFail c => OCommitJournalFail c end) acts.
Definition act_ok (k : bool) (a : act) : Prop := match a with AWrite p q => 1 <= p /\ (k = true -> pg_wal q = false) | ACut | AFail _ => True end.

Lemma run_group_app s a b : run_group s (a ++ b) =
  match run_group s a with (0, s') => run_group s' b | r => r end.
Proof.
  revert s. induction a as [|o a IH]; intros s; cbn [app run_group]; [reflexivity|].
  destruct (step s o) as [oc s1]. destruct oc; cbn [ocode]; try reflexivity. apply IH.
Qed.
Lemma run_group_one s o s' : run_group s [o] = (0, s') -> step s o = (Done, s').
Proof.
  cbn [run_group]. destruct (step s o) as [oc s1]. destruct oc; cbn [ocode]; intros H; inversion H; reflexivity.
Qed.
Lemma run_group_ind (P : st -> Prop) (ok : op -> Prop) :
  (forall s o s', ok o -> P s -> step s o = (Done, s') -> P s') ->
  forall ops s s', Forall ok ops -> P s -> run_group s ops = (0, s') -> P s'.
Proof.
  intros Hstep. induction ops as [|o r IH]; intros s s' Hok HP H; cbn [run_group] in H; [inversion H; subst; exact HP|].
  inversion Hok as [|? ? Ho Hr]; subst. destruct (step s o) as [oc s1] eqn:E.
  destruct oc; cbn [ocode] in H; try discriminate. exact (IH s1 s' Hr (Hstep s o s1 Ho HP E) H).
Qed.

(* the gaps are filled before anything is written: the cache still says nothing beyond the old size *)
Lemma run_zero_fills k s0 : forall zf s, Mid k s0 s ->
  (forall p q, In (p, q) zf -> pageN s0 < p /\ (k = true -> pg_wal q = false)) -> (forall p, pageN s0 < p -> dbc s p = 0) ->
  exists s', run_group s (zf_ops zf) = (0, s') /\ Mid k s0 s'.
Proof.
  induction zf as [|[p q] zf IH]; intros s M H Hz; cbn [zf_ops map run_group step op_zero_fill fst snd].
  - exists s. auto.
  - destruct (H p q (or_introl eq_refl)) as [Hp Hw]. apply IH.
    + apply mid_zero_fill; [exact M|rewrite (m_pn k s0 s M); exact Hp|exact (Hz p Hp)|exact Hw].
    + intros p' q' Hin. apply H. right; assumption.
    + exact Hz.
Qed.

Lemma commit_journal_fields s c s' : op_commit_journal s c = (Done, s') ->
  writeable s' = true /\ lockpg s' = lockpg s /\
  (wal_mode s' = true -> exists q, file_pg s 1 = Some q /\ pg_wal q = true) /\ wal_chk s' = [] /\ wal_file s' = wal_file s.
Proof.
  intros H. apply op_commit_journal_inv in H. destruct H as (Ew & pages & sj & post & s2 & Ej & Eck & ->).
  destruct (journal_pages_some _ _ _ _ _ Ej) as [Fj [_ [_ [_ [_ A2]]]]].
  destruct (checksum_result _ _ _ _ _ Eck) as [Fk _].
  destruct (frame_trans _ _ _ (frame_trans _ _ _ Fj (frame_clear_after_commit _ sj c)) Fk) as [Fw Fl _ _ Fwc _ Fwf _ _ _ _].
  cbn [writeable lockpg wal_mode wal_chk wal_file with_dirty with_pos].
  split; [rewrite Fw; exact Ew|]. split; [exact Fl|]. split; [|split; [exact Fwc|exact Fwf]].
  destruct (alookup 1 pages) as [q|] eqn:Ea; [|discriminate].
  intros Hw. exists q. split; [|exact Hw]. apply (A2 1 q). apply alookup_in. exact Ea.
Qed.

(* between transactions: what C04 asks for, and what keeps it true *)
Record J (s : st) : Prop := {
  j_w : writeable s = true; j_mode : wal_mode s = false; j_lk1 : 1 <= lockpg s;
  j_cache : CacheOK s; j_lz : LockZero s;
  j_truth : forall p, 1 <= p <= pageN s -> p <> lockpg s -> dbc s p = file_h s p;
  j_tail : forall p, pageN s < p -> dbc s p = 0;
  j_chk : txid s <> 0 -> chk s = scratch (fun p => if p =? lockpg s then 0 else file_h s p) (pageN s);
  j_p1 : forall q, file_pg s 1 = Some q -> pg_wal q = false
}.

(* between transactions, whatever the journal mode: the per-page cache is the database file's *)
Record JB (s : st) : Prop := {
  b_w : writeable s = true; b_lk1 : 1 <= lockpg s; b_cache : CacheOK s; b_lz : LockZero s;
  b_truth : forall p, 1 <= p <= pageN s -> p <> lockpg s -> dbc s p = file_h s p;
  b_tail : forall p, pageN s < p -> dbc s p = 0;
  b_chk : txid s <> 0 -> chk s = scratch (fun p => if p =? lockpg s then 0 else file_h s p) (pageN s)
}.
Lemma jb_j s : JB s -> wal_mode s = false -> (forall q, file_pg s 1 = Some q -> pg_wal q = false) -> J s.
Proof. intros [A B C D E F G] Hm Hp. constructor; assumption. Qed.

Lemma j_jb s : J s -> JB s.
Proof. intros []. constructor; assumption. Qed.
Lemma jb_mid k s : JB s -> (k = true -> forall q, file_pg s 1 = Some q -> pg_wal q = false) -> Mid k s s.
Proof.
  intros [A B C D E F G] Hp. constructor; try assumption; try reflexivity.
  intros x Hx Hnl. destruct (N.le_gt_cases x (pageN s)) as [Hle|Hgt].
  - left. apply E; [exact (conj Hx Hle)|assumption].
  - right. split; [exact Hgt|apply F; exact Hgt].
Qed.
Lemma j_mid k s : J s -> Mid k s s.
Proof. intros HJ. apply jb_mid; [exact (j_jb s HJ)|intros _; exact (j_p1 s HJ)]. Qed.

Lemma mid_commit k s0 s c s' : Mid k s0 s -> op_commit_journal s c = (Done, s') ->
  JB s' /\ txid s' = txid s0 + 1 /\ pageN s' = c /\
  (k = true -> wal_mode s' = false /\ forall q, file_pg s' 1 = Some q -> pg_wal q = false).
Proof.
  intros [Mw Mmode Mlock Mlk Mpn Mtx Mchk Mcache Mlz Mtruth Mp1] H.
  destruct (commit_journal_checksum s c s' Mcache Mlz Mlk H) as [C1 [C2 [C3 [C4 [C5 [C6 [C7 C8]]]]]]].
  destruct (commit_journal_file s c s' H) as [f [_ [_ [_ [_ [_ [_ [_ [_ Ef]]]]]]]]].
  destruct (commit_journal_fields s c s' H) as [F1 [F2 [F3 _]]].
  pose proof (file_h_dbfile s s' Ef) as Hfh.
  assert (Hjc : forall p, 1 <= p -> p <> lockpg s -> jc s p = file_h s p).
  { intros p Hp Hnl. unfold jc, unwritten. fold (dbc s p). destruct (Mtruth p Hp Hnl) as [E|[Hgt Hz]].
    - destruct (_ && _); [reflexivity|exact E].
    - rewrite (proj2 (N.ltb_lt _ _) Hgt), Hz. reflexivity. }
  split; [|split; [congruence|split; [assumption|]]].
  2:{ intros Hk. split.
      - destruct (wal_mode s') eqn:Ew; [|reflexivity]. destruct (F3 eq_refl) as [q [Hq Hw]]. rewrite (Mp1 Hk q Hq) in Hw. discriminate.
      - intros q Hq. apply (Mp1 Hk). unfold file_pg in *. rewrite Ef in Hq. exact Hq. }
  constructor; rewrite ?F2, ?C3; try assumption.
  - intros p Hp Hnl. rewrite C8, Hfh by assumption. apply Hjc; [apply Hp|assumption].
  - intros _. rewrite C1. apply scratch_ext. intros p Hp.
    destruct (N.eqb_spec p (lockpg s)) as [_|Hnl]; [reflexivity|]. rewrite Hfh. apply Hjc; [apply Hp|assumption].
Qed.

Lemma truncate_db_spec s n : CacheOK s -> LockZero s -> 1 <= lockpg s ->
  let s' := truncate_db s n in
  CacheOK s' /\ LockZero s' /\
  (forall x, 1 <= x -> dbc s' x = if x <=? n then dbc s x else 0) /\
  (forall x, 1 <= x -> file_h s' x = if x <=? n then file_h s x else 0) /\ (P1 s -> P1 s').
Proof.
  intros HC HL Hlk. unfold truncate_db, reset_after.
  set (sf := with_file s (firstn (N.to_nat n) (dbfile s))).
  destruct (clear_from_spec (length (chk_pages sf)) sf n ltac:(lia) (cacheok_with_file s _ HC) HL Hlk) as [C2 [L2 D2]].
  pose proof (dbfile_clear_from (length (chk_pages sf)) sf n) as F2.
  cbn zeta. split; [exact C2|]. split; [exact L2|]. split; [exact D2|]. split.
  - intros x Hx. apply (file_h_firstn s); [exact F2|exact Hx].
  - intros H. apply (p1_firstn s _ (N.to_nat n) H F2).
Qed.

Lemma mid_truncate k s0 s n : Mid k s0 s -> Mid k s0 (truncate_db s n).
Proof.
  intros [Mw Mmode Mlock Mlk Mpn Mtx Mchk Mcache Mlz Mtruth Mp1].
  destruct (truncate_db_spec s n Mcache Mlz Mlk) as [C [L [D [F Q]]]]. cbn zeta in *.
  destruct (frame_truncate_db s n) as [W E P M _ _ _ _ T K _].
  constructor; try congruence; try assumption.
  - intros x Hx Hnl. rewrite E in Hnl. rewrite P, D, F by assumption.
    destruct (x <=? n); [exact (Mtruth x Hx Hnl)|left; reflexivity].
  - intros Hk. exact (Q (Mp1 Hk)).
Qed.

Lemma run_acts k s0 : wal_mode s0 = false -> forall acts s, Mid k s0 s -> Forall (act_ok k) acts ->
  exists s', run_group s (act_ops (pageN s0) acts) = (0, s') /\ Mid k s0 s'.
Proof.
  intros Hm0. induction acts as [|a acts IH]; intros s M Hok; cbn [act_ops map run_group].
  - exists s. auto.
  - inversion Hok as [|? ? Ha Hok']; subst. destruct a as [p q| |cf]; cbn [step].
    + destruct Ha as [Hp Hw]. destruct (mid_write k s0 s p q M Hm0 Hp Hw) as [s1 [-> M1]]. exact (IH s1 M1 Hok').
    + unfold op_truncate. rewrite (m_pn k s0 s M), N.eqb_refl. exact (IH _ (mid_truncate k s0 s _ M) Hok').
    + exact (IH s M Hok').
Qed.

Lemma run_writes k s0 : wal_mode s0 = false -> forall wr s, Mid k s0 s -> (forall p q, In (p, q) wr -> 1 <= p /\ (k = true -> pg_wal q = false)) ->
  exists s', run_group s (wr_ops wr) = (0, s') /\ Mid k s0 s'.
Proof.
  intros Hm0 wr s M H.
  replace (wr_ops wr) with (act_ops (pageN s0) (map (fun kv => AWrite (fst kv) (snd kv)) wr)) by apply map_map.
  apply run_acts; [exact Hm0|exact M|]. apply Forall_map, Forall_forall. intros [p q] Hin. exact (H p q Hin).
Qed.

Lemma j_truncate s n s' : J s -> op_truncate s n = (Done, s') -> J s' /\ lockpg s' = lockpg s.
Proof.
  intros [Jw Jmode Jlk Jcache Jlz Jtruth Jtail Jchk Jp1] H. destruct (op_truncate_inv _ _ _ H) as [-> ->].
  destruct (truncate_db_spec s (pageN s) Jcache Jlz Jlk) as [C [L [D [F Q]]]]. cbn zeta in *.
  destruct (frame_truncate_db s (pageN s)) as [W E P M _ _ _ _ T K _].
  split; [|exact E]. constructor; try congruence; try assumption.
  - intros p Hp Hnl. rewrite P in Hp. rewrite E in Hnl. rewrite D, F by apply Hp.
    destruct (p <=? pageN s); [apply Jtruth; assumption|reflexivity].
  - intros p Hp. rewrite P in Hp. rewrite D, (proj2 (N.leb_gt _ _) Hp) by exact (lt_ge1 _ _ Hp). reflexivity.
  - intros Ht. rewrite T in Ht. rewrite K, P, E, (Jchk Ht). apply scratch_ext. intros p Hp.
    destruct (p =? lockpg s); [reflexivity|]. rewrite F, (proj2 (N.leb_le _ _) (proj2 Hp)) by apply Hp. reflexivity.
  - exact (Q Jp1).
Qed.

Inductive hstep :=
| HTx (zf : list (N * pg)) (acts : list act) (c : N)
    (* a rollback-journal transaction that ends with the finalisation of a valid journal - a commit, or a rollback after a
       spill: the gaps the file system fills (pages SQLite never writes), then page writes in any order with any
       repetitions (new content, pre-images put back) and cuts back to the old size, then the size page 1 names *)
| HTrunc (n : N).                        (* the truncate SQLite issues after a shrinking commit *)
Definition hops (s : st) (h : hstep) : list op :=
  match h with
  | HTx zf acts c => zf_ops zf ++ act_ops (pageN s) acts ++ [OCommitJournal c]
  | HTrunc n => [OTruncate n]
  end.
(* what SQLite's pager guarantees about a transaction, relative to the state it starts in: the gaps lie beyond the old
   size and are distinct; page numbers start at 1; the database stays in rollback-journal mode *)
Definition wf_step (s : st) (h : hstep) : Prop :=
  match h with
  | HTx zf acts c => NoDup (map fst zf) /\ (forall p q, In (p, q) zf -> pageN s < p /\ pg_wal q = false) /\ Forall (act_ok true) acts
  | HTrunc _ => True
  end.
Fixpoint run_hsteps (s : st) (hs : list hstep) : option st :=
  match hs with
  | [] => Some s
  | h :: r => match run_group s (hops s h) with (0, s') => run_hsteps s' r | _ => None end
  end.
Fixpoint wf_hist (s : st) (hs : list hstep) : Prop :=
  match hs with
  | [] => True
  | h :: r => wf_step s h /\ forall s', run_group s (hops s h) = (0, s') -> wf_hist s' r
  end.

Lemma run_tx k s zf acts c s' : J s ->
  (forall p q, In (p, q) zf -> pageN s < p /\ (k = true -> pg_wal q = false)) -> Forall (act_ok k) acts ->
  run_group s (hops s (HTx zf acts c)) = (0, s') ->
  exists s2, Mid k s s2 /\ step s2 (OCommitJournal c) = (Done, s').
Proof.
  intros HJ Hzf Hacts H. cbn [hops] in H.
  destruct (run_zero_fills k s zf s (j_mid k s HJ) Hzf (j_tail s HJ)) as [s1 [E1 M1]].
  destruct (run_acts k s (j_mode s HJ) acts s1 M1 Hacts) as [s2 [E2 M2]].
  rewrite run_group_app, E1, run_group_app, E2 in H.
  exists s2. split; [exact M2|exact (run_group_one _ _ _ H)].
Qed.

(* nothing was written and there is no database: the journal is invalidated, nothing is published *)
Lemma mid_nothing k s s2 : J s -> Mid k s s2 -> pageN s2 = 0 -> dbfile s2 = [] -> J (with_dirty s2 []).
Proof.
  intros HJ [Mw Mmode Mlock Mlk Mpn Mtx Mchk Mcache Mlz Mtruth Mp1] Ep Edb.
  constructor; cbn [writeable wal_mode lockpg pageN txid chk with_dirty]; try assumption.
  - rewrite Mmode. exact (j_mode s HJ).
  - intros p Hp. rewrite Ep in Hp. clear -Hp. lia.
  - intros p Hp. change (dbc s2 p = 0). destruct (N.eq_dec p (lockpg s2)) as [->|Hnl]; [exact Mlz|].
    destruct (Mtruth p (lt_ge1 _ _ Hp) Hnl) as [E|[_ E]]; [rewrite E; exact (file_h_nofile s2 p Edb)|exact E].
  - intros Ht. rewrite Mtx in Ht. rewrite Mchk, (j_chk s HJ Ht), Ep, <- Mpn, Ep. reflexivity.
  - intros q Hq. unfold file_pg in Hq. cbn [dbfile with_dirty] in Hq. rewrite Edb in Hq. destruct (N.to_nat (1 - 1)); discriminate.
Qed.

Lemma j_step s h s' : J s -> wf_step s h -> run_group s (hops s h) = (0, s') -> J s' /\ lockpg s' = lockpg s.
Proof.
  intros HJ Hwf H. destruct h as [zf acts c|n]; cbn [wf_step] in *.
  - destruct Hwf as [Hnd [Hzf Hacts]].
    destruct (run_tx true s zf acts c s' HJ) as [s2 [M2 H2]]; [|exact Hacts|exact H|].
    { intros p q Hin. destruct (Hzf p q Hin). auto. }
    destruct (step_commit_cases s2 c s' H2) as [[Ep [Edb ->]]|Hc].
    + split; [exact (mid_nothing true s s2 HJ M2 Ep Edb)|exact (m_lock true s s2 M2)].
    + destruct (mid_commit true s s2 c s' M2 Hc) as [HB [_ [_ Hs]]]. destruct (Hs eq_refl) as [Hm Hp1]. split; [exact (jb_j s' HB Hm Hp1)|].
      destruct (commit_journal_fields s2 c s' Hc) as [_ [F _]]. rewrite F. apply (m_lock true s s2 M2).
  - cbn [hops] in H. apply run_group_one in H. exact (j_truncate s n s' HJ H).
Qed.

(* a rollback-journal transaction whose pages may carry anything - in particular the one that rewrites page 1 with the WAL
   versions and so takes the database into WAL mode *)
Definition wf_tx_any (s : st) (zf : list (N * pg)) (acts : list act) : Prop :=
  NoDup (map fst zf) /\ (forall p q, In (p, q) zf -> pageN s < p) /\ Forall (act_ok false) acts.
Lemma tx_step_any s zf acts c s' : J s -> wf_tx_any s zf acts -> run_group s (hops s (HTx zf acts c)) = (0, s') ->
  wal_mode s' = true ->
  JB s' /\ wal_chk s' = [] /\ txid s' = txid s + 1 /\ pageN s' = c /\ lockpg s' = lockpg s.
Proof.
  intros HJ [Hnd [Hzf Hacts]] H Hm.
  destruct (run_tx false s zf acts c s' HJ) as [s2 [M2 H2]]; [|exact Hacts|exact H|].
  { intros p q Hin. split; [exact (Hzf p q Hin)|discriminate]. }
  destruct (step_commit_cases s2 c s' H2) as [[_ [_ ->]]|Hc].
  - cbn [wal_mode with_dirty] in Hm. rewrite (m_mode false s s2 M2), (j_mode s HJ) in Hm. discriminate.
  - destruct (mid_commit false s s2 c s' M2 Hc) as [HB [Et [Ep _]]].
    destruct (commit_journal_fields s2 c s' Hc) as [_ [F [_ [K _]]]].
    split; [exact HB|]. split; [exact K|]. split; [exact Et|]. split; [exact Ep|]. rewrite F. apply (m_lock false s s2 M2).
Qed.

Theorem journal_history_invariant : forall hs s s', J s -> wf_hist s hs -> run_hsteps s hs = Some s' -> J s' /\ lockpg s' = lockpg s.
Proof.
  induction hs as [|h r IH]; intros s s' HJ Hwf H; cbn [run_hsteps wf_hist] in *.
  - inversion H; subst. split; [exact HJ|reflexivity].
  - destruct Hwf as [Hw Hrest]. destruct (run_group s (hops s h)) as [code s1] eqn:E.
    destruct code; [|discriminate]. destruct (j_step s h s1 HJ Hw E) as [HJ1 El1].
    destruct (IH s1 s' HJ1 (Hrest s1 eq_refl) H) as [HJ' El']. split; [exact HJ'|congruence].
Qed.

Lemma j_init lock : 1 <= lock -> J (init lock).
Proof.
  intros Hl. constructor; cbn [writeable wal_mode lockpg pageN txid init]; try reflexivity; try assumption.
  - apply cacheok_noblocks. reflexivity.
  - apply dbc_nopages. reflexivity.
  - intros p Hp. clear -Hp. lia.
  - intros p _. apply dbc_nopages. reflexivity.
  - intros H. contradiction H. reflexivity.
  - intros q Hq. discriminate.
Qed.

(* C04 for every rollback-journal history from an empty node: once something was committed, the position's checksum is the
   from-scratch checksum of the database file, and the per-page cache agrees with the file page by page *)
Theorem journal_history_checksum lock hs s' :
  1 <= lock -> wf_hist (init lock) hs -> run_hsteps (init lock) hs = Some s' ->
  (txid s' <> 0 -> chk s' = scratch (fun p => if p =? lock then 0 else file_h s' p) (pageN s')) /\
  (forall p, 1 <= p <= pageN s' -> p <> lock -> dbc s' p = file_h s' p) /\ lockpg s' = lock.
Proof.
  intros Hl Hwf H. destruct (journal_history_invariant hs (init lock) s' (j_init lock Hl) Hwf H) as [HJ El].
  change (lockpg (init lock)) with lock in El. rewrite <- El.
  exact (conj (j_chk s' HJ) (conj (j_truth s' HJ) eq_refl)).
Qed.

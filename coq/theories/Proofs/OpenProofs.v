(* C04 across a restart: Open recomputes every page checksum from the database file and re-applies the last transaction
   file; if it succeeds, the position's checksum is the from-scratch checksum of the file and the cache is the file's -
   whatever the state before. *)
From Coq Require Import NArith List Lia Bool Arith.
Require Import LF.Model.PageDB LF.Proofs.ChecksumProofs LF.Proofs.HistoryProofs LF.Proofs.ApplyHistoryProofs.
Import ListNotations.
Local Open Scope N_scope.

(* the state Open builds before it re-applies the last file *)
Definition open_recomputed (s : st) : st :=
  let '(pN0, wal0) := match file_hdr s with Some (n, w) => (n, w) | None => (0, false) end in
  let s0 := mkSt (writeable s) (lockpg s) (dbfile s) pN0 wal0 [] [] [] [] (wal_file s) [] 0 0 (ltxdir s) in
  let '(_, s1) := op_checkpoint s0 in
  let '(pN1, wal1) := match file_hdr s1 with Some (n, w) => (n, w) | None => (0, false) end in
  let pages := map (fun p => pg_h p) (firstn (N.to_nat pN1) (dbfile s1)) in
  let pages := pages ++ repeat 0 (N.to_nat pN1 - length pages) in
  let pages := if (1 <=? lockpg s1) && (lockpg s1 <=? lenN pages) then set_nth pages (N.to_nat (lockpg s1 - 1)) 0 else pages in
  let blocks := repeat 0 (N.to_nat (block_of pN1)) in
  mkSt (writeable s1) (lockpg s1) (dbfile s1) pN1 wal1 pages blocks [] [] [] [] 0 0 (ltxdir s1).

Lemma op_open_eq s : op_open s =
  match rev (ltxdir (open_recomputed s)) with
  | [] => (Done, open_recomputed s)
  | f :: _ => op_apply (open_recomputed s) f false
  end.
Proof.
  unfold op_open, open_recomputed.
  destruct (match file_hdr s with Some (n, w) => (n, w) | None => (0, false) end) as [pN0 wal0].
  destruct (op_checkpoint _) as [o1 s1].
  destruct (match file_hdr s1 with Some (n, w) => (n, w) | None => (0, false) end) as [pN1 wal1].
  reflexivity.
Qed.

(* [open_recomputed] in two steps: the files as Open finds them, with every cache and the position forgotten, are
   checkpointed; from the database file that leaves, the page checksums are recomputed *)
Definition open_s0 (s : st) : st :=
  let '(pN0, wal0) := match file_hdr s with Some (n, w) => (n, w) | None => (0, false) end in
  mkSt (writeable s) (lockpg s) (dbfile s) pN0 wal0 [] [] [] [] (wal_file s) [] 0 0 (ltxdir s).
Definition open_rebuilt (s1 : st) : st :=
  let '(pN1, wal1) := match file_hdr s1 with Some (n, w) => (n, w) | None => (0, false) end in
  let pages := map (fun p => pg_h p) (firstn (N.to_nat pN1) (dbfile s1)) in
  let pages := pages ++ repeat 0 (N.to_nat pN1 - length pages) in
  let pages := if (1 <=? lockpg s1) && (lockpg s1 <=? lenN pages) then set_nth pages (N.to_nat (lockpg s1 - 1)) 0 else pages in
  let blocks := repeat 0 (N.to_nat (block_of pN1)) in
  mkSt (writeable s1) (lockpg s1) (dbfile s1) pN1 wal1 pages blocks [] [] [] [] 0 0 (ltxdir s1).

Lemma open_recomputed_shape s : open_recomputed s = open_rebuilt (snd (op_checkpoint (open_s0 s))).
Proof.
  unfold open_recomputed, open_s0, open_rebuilt.
  destruct (match file_hdr s with Some (n, w) => (n, w) | None => (0, false) end) as [pN0 wal0].
  destruct (op_checkpoint _) as [o1 s1]. reflexivity.
Qed.

Lemma open_recomputed_keeps s : let s2 := open_recomputed s in
  writeable s2 = writeable s /\ lockpg s2 = lockpg s /\ ltxdir s2 = ltxdir s /\
  wal_chk s2 = [] /\ wal_file s2 = [] /\ dirty s2 = [] /\ txid s2 = 0 /\ dbfile s2 = dbfile (snd (op_checkpoint (open_s0 s))).
Proof.
  cbn zeta. rewrite open_recomputed_shape. destruct (checkpoint_keeps (open_s0 s)) as [Kw [Kl [_ [_ [_ [_ Kd]]]]]].
  set (s1 := snd (op_checkpoint (open_s0 s))) in *. unfold open_rebuilt.
  destruct (match file_hdr s1 with Some (n, w) => (n, w) | None => (0, false) end) as [pN1 wal1].
  cbn [writeable lockpg ltxdir wal_chk wal_file dirty txid dbfile]. rewrite Kw, Kl, Kd. unfold open_s0.
  destruct (match file_hdr s with Some (n, w) => (n, w) | None => (0, false) end) as [pN0 wal0]. cbn. auto 10.
Qed.

Lemma ltxdir_open_recomputed s : ltxdir (open_recomputed s) = ltxdir s.
Proof. apply (open_recomputed_keeps s). Qed.

Lemma nth_repeat0 n : forall i, nth i (repeat 0 n) 0 = 0.
Proof. induction n as [|n IH]; intros i; destruct i; cbn; auto. Qed.
Lemma nth_app_zeros (l : list N) k i : nth i (l ++ repeat 0 k) 0 = nth i l 0.
Proof.
  destruct (Nat.lt_ge_cases i (length l)) as [Hlt|Hge].
  - apply app_nth1. assumption.
  - rewrite app_nth2 by assumption. rewrite nth_repeat0. symmetry. apply nth_overflow. assumption.
Qed.
Lemma nth_map_h (l : list pg) : forall i, nth i (map (fun p => pg_h p) l) 0 = h_at l i.
Proof. unfold h_at. induction l as [|x l IH]; intros i; destruct i; cbn; auto. Qed.

Lemma open_rebuilt_cache s1 : 1 <= lockpg s1 -> let s2 := open_rebuilt s1 in
  CacheOK s2 /\ LockZero s2 /\ (forall x, 1 <= x <= pageN s2 -> x <> lockpg s1 -> dbc s2 x = file_h s2 x).
Proof.
  intros Hlk. unfold open_rebuilt.
  destruct (match file_hdr s1 with Some (n, w) => (n, w) | None => (0, false) end) as [pN1 wal1].
  cbn zeta.
  set (pages0 := map (fun p => pg_h p) (firstn (N.to_nat pN1) (dbfile s1)) ++
                 repeat 0 (N.to_nat pN1 - length (map (fun p => pg_h p) (firstn (N.to_nat pN1) (dbfile s1))))).
  set (pages := if (1 <=? lockpg s1) && (lockpg s1 <=? lenN pages0) then set_nth pages0 (N.to_nat (lockpg s1 - 1)) 0 else pages0).
  assert (Hp0 : forall i, nth i pages0 0 = if (i <? N.to_nat pN1)%nat then h_at (dbfile s1) i else 0).
  { intros i. unfold pages0. rewrite nth_app_zeros, nth_map_h. apply firstn_h. }
  split. { intros b Hb Hnz. exfalso. apply Hnz. unfold nthN. cbn [chk_blocks]. apply nth_repeat0. }
  split.
  { unfold LockZero, dbc, db_page_chk, nthN. cbn [chk_pages lockpg]. unfold pages.
    destruct ((1 <=? lockpg s1) && (lockpg s1 <=? lenN pages0)) eqn:Ec.
    - apply set_nth_same.
    - destruct (N.leb_spec 1 (lockpg s1)); [|lia]. cbn [andb] in Ec. apply N.leb_gt in Ec.
      apply nth_overflow. unfold lenN in Ec. lia. }
  intros x Hx Hnl. cbn [pageN] in Hx. unfold dbc, db_page_chk, nthN. cbn [chk_pages].
  assert (nth (N.to_nat (x - 1)) pages 0 = nth (N.to_nat (x - 1)) pages0 0) as ->.
  { unfold pages. destruct ((1 <=? lockpg s1) && (lockpg s1 <=? lenN pages0)); [|reflexivity].
    apply set_nth_other. lia. }
  rewrite Hp0. destruct (Nat.ltb_spec (N.to_nat (x - 1)) (N.to_nat pN1)); [|lia]. reflexivity.
Qed.

Lemma open_recomputed_facts s : 1 <= lockpg s ->
  let s2 := open_recomputed s in
  lockpg s2 = lockpg s /\ CacheOK s2 /\ LockZero s2 /\ wal_chk s2 = [] /\ txid s2 = 0 /\
  (forall x, 1 <= x <= pageN s2 -> x <> lockpg s -> dbc s2 x = file_h s2 x).
Proof.
  intros Hlk. destruct (open_recomputed_keeps s) as [_ [El [_ [Ek [_ [_ [Et _]]]]]]]. cbn zeta in *.
  split; [exact El|]. rewrite open_recomputed_shape in *.
  assert (lockpg (snd (op_checkpoint (open_s0 s))) = lockpg s) as El1.
  { destruct (checkpoint_keeps (open_s0 s)) as [_ [Kl _]]. rewrite Kl. unfold open_s0.
    destruct (match file_hdr s with Some (n, w) => (n, w) | None => (0, false) end). reflexivity. }
  destruct (open_rebuilt_cache _ ltac:(rewrite El1; exact Hlk)) as [A [B C]]. rewrite El1 in C. auto.
Qed.

(* C04 across a restart.  [f] is the newest transaction file; the one thing asked beyond its well-formedness: a page it
   would add to the database beyond the size the file header names is among its pages (C02_growth_is_captured for the files a
   primary writes). *)
Theorem open_checksum s f rest s' :
  1 <= lockpg s -> rev (ltxdir s) = f :: rest -> wf_ltx f ->
  (forall x, pageN (open_recomputed s) < x <= l_commit f -> x <> lockpg s -> alookup x (l_pages f) <> None) ->
  op_open s = (Done, s') ->
  RB s' /\ lockpg s' = lockpg s /\ txid s' = l_max f /\ pageN s' = l_commit f /\ chk s' = l_post f /\
  chk s' = scratch (fun p => if p =? lockpg s' then 0 else file_h s' p) (pageN s').
Proof.
  intros Hlk Hr Hwf Hg H. rewrite op_open_eq, ltxdir_open_recomputed, Hr in H.
  destruct (open_recomputed_facts s Hlk) as [El [HC [HL [Hw [_ Ht]]]]]. cbn zeta in *.
  destruct (apply_core (open_recomputed s) f false s') as [A [B C]]; try assumption.
  - rewrite El. exact Hlk.
  - intros x Hx Hnl Hnone. rewrite El in Hnl. apply Ht; [|assumption].
    destruct (N.le_gt_cases x (pageN (open_recomputed s))); [lia|]. exfalso. apply (Hg x); [lia|assumption|assumption].
  - split; [exact A|]. split; [congruence|exact C].
Qed.

(* C09 over histories: the chain invariant along every history of C04_history's steps with retention sweeps between any
   two of them.  No well-formedness premise on the steps: the chain is a property of the log alone.  Consequences: the
   life cycle of a drop (C15) and what the newest file says about the database (C09). *)
From Coq Require Import NArith List Lia Bool.
Require Import LF.Model.PageDB LF.Proofs.ChecksumProofs LF.Proofs.ChainProofs LF.Proofs.HistoryProofs
  LF.Proofs.WalCheckpointProofs LF.Proofs.SqlCheckpointProofs LF.Proofs.ComposeProofs LF.Proofs.WalLogHistoryProofs
  LF.Proofs.DropProofs LF.Proofs.WalCheck.
Import ListNotations.
Local Open Scope N_scope.

(* an operation other than a retention sweep has no side condition *)
Definition nret (o : op) : Prop := match o with ORetention _ _ _ => False | _ => True end.
Lemma nret_ok s o : nret o -> ok_op s o.
Proof. destruct o; cbn [nret ok_op]; try exact (fun _ => I). contradiction. Qed.
Lemma jop_nret o : jop o -> nret o.
Proof. destruct o; cbn [jop nret]; auto. Qed.

Lemma run_group_chain ops s s' : Chain s -> Forall nret ops -> run_group s ops = (0, s') -> Chain s'.
Proof.
  intros HC Hn. apply (run_group_ind Chain nret); [|exact Hn|exact HC].
  intros s0 o s1 Ho HC0. exact (chain_step s0 o s1 HC0 (nret_ok s0 o Ho)).
Qed.

Lemma hops_nret s h : Forall nret (hops s h).
Proof. eapply Forall_impl; [|apply hops_jops]. exact jop_nret. Qed.
Lemma keeps_pos_nret o : keeps_pos o -> nret o.
Proof. destruct o; cbn [keeps_pos nret]; auto. Qed.
Lemma wop2_ops_nret s o : Forall nret (wop2_ops s o).
Proof.
  destruct (wop2_ops_keep_pos s o) as [[fr [c ->]]|H]; [repeat constructor|exact (Forall_impl _ keeps_pos_nret H)].
Qed.
Lemma leave_ops_nret q c : Forall nret (leave_ops q c).
Proof. unfold leave_ops. repeat constructor. Qed.

Lemma receive_failed_same s f s' : op_receive s f = (Failed, s') -> s' = s.
Proof.
  unfold op_receive. destruct (negb (is_snapshot f) && negb (extends_pos s f)); intros H; [inversion H; reflexivity|].
  exfalso. exact (apply_fatal_not_failed _ _ _ H).
Qed.
Lemma forward_failed_same s f ok s' : op_forward s f ok = (Failed, s') -> s' = s.
Proof.
  unfold op_forward. destruct (negb (extends_pos s f)); intros H; [inversion H; reflexivity|].
  destruct (negb ok); [inversion H; reflexivity|]. exfalso. exact (apply_fatal_not_failed _ _ _ H).
Qed.

Lemma g_chain_step s g s' : Chain s -> grun s g = Some s' -> Chain s'.
Proof.
  intros HC H. apply grun_inv in H. destruct g as [h|zf acts c|o|q c| |f|f ok| |pages commit].
  - exact (run_group_chain _ s s' HC (hops_nret s h) H).
  - exact (run_group_chain _ s s' HC (hops_nret s _) H).
  - exact (run_group_chain _ s s' HC (wop2_ops_nret s o) H).
  - exact (run_group_chain _ s s' HC (leave_ops_nret q c) H).
  - exact (chain_open s s' (proj1 HC) H).
  - destruct (refused s f) eqn:Er; [subst s'; exact HC|]. exact (chain_applied s f s' HC Er H).
  - destruct (fwd_refused s f ok) eqn:Er; [subst s'; exact HC|]. apply (chain_applied s f s' HC); [|exact H].
    unfold fwd_refused in Er. apply orb_false_iff in Er. destruct Er as [Er _]. apply negb_false_iff in Er.
    rewrite Er. apply andb_false_r.
  - exact (chain_drop s s' HC H).
  - exact (chain_import s pages commit true s' HC H).
Qed.

(* histories: the steps of C04_history with retention sweeps (any ages, with or without a backup service, any high-water
   mark) at any point between them *)
Inductive cstep :=
| CG (g : gstep)
| CSweep (ages : list bool) (backup : bool) (hwm : N).
Definition crun (s : st) (c : cstep) : option st :=
  match c with
  | CG g => grun s g
  | CSweep ages backup hwm => match step s (ORetention ages backup hwm) with (Done, s') => Some s' | _ => None end
  end.
(* a sweep's ages do not decrease with the transaction id (files are written in order) *)
Definition cok (s : st) (c : cstep) : Prop :=
  match c with CG _ => True | CSweep ages backup hwm => ok_op s (ORetention ages backup hwm) end.
Fixpoint run_csteps (s : st) (cs : list cstep) : option st :=
  match cs with
  | [] => Some s
  | c :: r => match crun s c with Some s' => run_csteps s' r | None => None end
  end.
Fixpoint ok_csteps (s : st) (cs : list cstep) : Prop :=
  match cs with
  | [] => True
  | c :: r => cok s c /\ forall s', crun s c = Some s' -> ok_csteps s' r
  end.

Lemma c_chain_step s c s' : Chain s -> cok s c -> crun s c = Some s' -> Chain s'.
Proof.
  intros HC Hok H. destruct c as [g|ages backup hwm]; cbn [crun cok] in *.
  - exact (g_chain_step s g s' HC H).
  - destruct (step s (ORetention ages backup hwm)) as [oc s1] eqn:E. destruct oc; try discriminate. inversion H; subst s1.
    exact (chain_step s _ s' HC Hok E).
Qed.

Lemma run_csteps_chain : forall cs s s', Chain s -> ok_csteps s cs -> run_csteps s cs = Some s' -> Chain s'.
Proof.
  induction cs as [|c r IH]; intros s s' HC Hok H; cbn [run_csteps ok_csteps] in *.
  - inversion H; subst. exact HC.
  - destruct Hok as [Hc Hr]. destruct (crun s c) as [s1|] eqn:E; [|discriminate].
    exact (IH s1 s' (c_chain_step s c s1 HC Hc E) (Hr s1 eq_refl) H).
Qed.

Theorem c_history_chain lock cs s' :
  ok_csteps (init lock) cs -> run_csteps (init lock) cs = Some s' -> Chain s'.
Proof. exact (run_csteps_chain cs (init lock) s' (chain_init lock)). Qed.

Lemma run_gsteps_csteps : forall gs s v s' v', run_gsteps s v gs = Some (s', v') ->
  run_csteps s (map CG gs) = Some s' /\ ok_csteps s (map CG gs).
Proof.
  induction gs as [|g r IH]; intros s v s' v' H; cbn [run_gsteps map run_csteps ok_csteps crun cok] in *.
  - inversion H. auto.
  - destruct (grun s g) as [s1|]; [|discriminate]. destruct (IH s1 _ s' v' H) as [A B].
    split; [exact A|]. split; [exact I|]. intros s2 E. inversion E; subst s2. exact B.
Qed.
Theorem g_history_chain lock gs s' v' : run_gsteps (init lock) (fun _ => 0) gs = Some (s', v') -> Chain s'.
Proof. intros H. destruct (run_gsteps_csteps gs _ _ s' v' H) as [A B]. exact (c_history_chain lock _ s' B A). Qed.

(* a decidable form of the sweeps' side condition, for concrete histories *)
Fixpoint pcb (rem : ltxrec -> bool) (d : list ltxrec) : bool :=
  match d with
  | [] => true
  | f :: r => if rem f then pcb rem r else forallb (fun g => negb (rem g)) r
  end.
Lemma pcb_sound rem : forall d, pcb rem d = true -> prefix_closed rem d.
Proof.
  induction d as [|x r IH]; intros H d1 f d2 E Hf g Hg.
  - destruct d1; discriminate.
  - cbn [pcb] in H. destruct d1 as [|y d1']; cbn [app] in E; inversion E; subst.
    + rewrite Hf in H. rewrite forallb_forall in H. apply negb_true_iff. exact (H g Hg).
    + destruct (rem y) eqn:Ey.
      * exact (IH H d1' f d2 eq_refl Hf g Hg).
      * rewrite forallb_forall in H. apply negb_true_iff. apply H. apply in_or_app. right. right. exact Hg.
Qed.

Definition cok_b (s : st) (c : cstep) : bool :=
  match c with
  | CG _ => true
  | CSweep ages backup hwm =>
      let tagged := combine (map l_max (ltxdir s)) ages in
      pcb (removable (fun f => match alookup (l_max f) tagged with Some b => b | None => false end) backup hwm) (ltxdir s)
  end.
Lemma cok_b_sound s c : cok_b s c = true -> cok s c.
Proof. destruct c as [g|ages backup hwm]; [exact (fun _ => I)|apply pcb_sound]. Qed.
Fixpoint check_csteps (s : st) (cs : list cstep) : option st :=
  match cs with
  | [] => Some s
  | c :: r => if cok_b s c then match crun s c with Some s' => check_csteps s' r | None => None end else None
  end.
Lemma check_csteps_sound : forall cs s r, check_csteps s cs = Some r -> ok_csteps s cs /\ run_csteps s cs = Some r.
Proof.
  induction cs as [|c cs IH]; intros s r H; cbn [check_csteps ok_csteps run_csteps] in *; [auto|].
  destruct (cok_b s c) eqn:Ec; [|discriminate]. destruct (crun s c) as [s1|]; [|discriminate].
  destruct (IH s1 r H) as [A B]. split; [|exact B]. split; [exact (cok_b_sound s c Ec)|].
  intros s2 E. inversion E; subst s2. exact A.
Qed.

Lemma csteps_by_check (Q : st -> Prop) s cs :
  match check_csteps s cs with Some s' => Q s' | None => False end ->
  ok_csteps s cs /\ match run_csteps s cs with Some s' => Q s' | None => False end.
Proof. exact (by_check _ _ _ Q (check_csteps_sound cs s)). Qed.

Definition chain_example : list cstep :=
  let pg h n := mkPg (fl h) n false in
  let pw h n := mkPg (fl h) n true in
  [CG (GJ (HTx [] [AWrite 1 (pg 11 2); AWrite 2 (pg 12 0)] 2));
   CG (GJ (HTx [] [AWrite 2 (pg 13 0)] 2));
   CSweep [true; false] false 0;
   CG (GSwitch [] [AWrite 1 (pw 13 2)] 2);
   CG (GW (W2Commit [(2, pw 24 0)] 2));
   CSweep [true; true; true] true 4;
   CG GRestart;
   CG (GRecv (mkLtx 9 9 0 0 1 []));
   CG GDrop;
   CSweep [true; true] true 5;
   CG (GImport [(1, pg 41 2); (2, pg 42 0)] 2)].

Theorem g_history_drop_lifecycle lock gs s v s1 :
  run_gsteps (init lock) (fun _ => 0) gs = Some (s, v) -> grun s GDrop = Some s1 ->
  txid s1 = txid s + 1 /\ chk s1 = flag /\ pageN s1 = 0 /\ dbfile s1 = [] /\ wal_file s1 = [] /\ wal_mode s1 = false /\ Chain s1 /\
  (exists s2, grun s1 GRestart = Some s2 /\ txid s2 = txid s1 /\ chk s2 = flag /\ pageN s2 = 0 /\ dbfile s2 = [] /\ ltxdir s2 = ltxdir s1) /\
  (forall commit s3, op_commit_journal s1 commit = (Done, s3) ->
     txid s3 = txid s + 2 /\ exists f, ltxdir s3 = ltxdir s1 ++ [f] /\ l_pre f = flag /\ l_min f = txid s + 2 /\ l_max f = txid s + 2).
Proof.
  intros Hrun Hd. pose proof (g_history_chain lock gs s v Hrun) as HC.
  pose proof (g_chain_step s GDrop s1 HC Hd) as HC1.
  pose proof (grun_inv s GDrop s1 Hd) as E. cbn beta iota in E.
  destruct (drop_exact s s1 E) as [f [_ [_ [_ [_ [_ [Ht [Hc [Hp [Hdb [Hwf Hwm]]]]]]]]]]].
  repeat (split; [assumption|]). split.
  - destruct (drop_survives_restart s s1 E) as [s2 [Ho [A [B [C [D F]]]]]]. exists s2. cbn [grun]. rewrite Ho. auto 10.
  - intros commit s3 H3. destruct (recreate_continues s1 commit s3 Hc H3) as [g [A [B [C [D F]]]]].
    split; [lia|]. exists g. repeat split; try assumption; lia.
Qed.

Theorem g_history_newest_file lock gs s' v' f rest :
  1 <= lock -> wf_gsteps (init lock) gs -> run_gsteps (init lock) (fun _ => 0) gs = Some (s', v') ->
  rev (ltxdir s') = f :: rest ->
  l_max f = txid s' /\
  (wal_mode s' = false -> txid s' <> 0 -> l_post f = scratch (fun p => if p =? lock then 0 else file_h s' p) (pageN s')) /\
  (wal_mode s' = true -> l_post f = scratch (fun p => if p =? lock then 0 else v' p) (pageN s')).
Proof.
  intros Hl Hwf Hrun Hr.
  destruct (g_history_checksum lock gs s' v' Hl Hwf Hrun) as [_ [HJ HW]].
  destruct (g_history_chain lock gs s' v' Hrun) as [_ He]. unfold ends_at in He. rewrite Hr in He. destruct He as [A B].
  split; [exact A|]. split.
  - intros Hm Ht. rewrite B. exact (proj1 (HJ Hm) Ht).
  - intros Hm. rewrite B. exact (proj1 (HW Hm)).
Qed.

(* C05 over histories, the primary alone: the newest file agrees with the logical database (LastAgree of
   FollowRestartProofs.v) along every history of C04_history's steps - no follower needed - hence a restart that completes
   leaves position, size and every logical page as they were. *)
From Coq Require Import NArith List.
Require Import LF.Model.PageDB LF.Proofs.ComposeProofs LF.Proofs.FollowWalProofs LF.Proofs.FollowGProofs
  LF.Proofs.FollowRestartProofs.
Import ListNotations.
Local Open Scope N_scope.

Lemma dirty_step s v g s' : GInv s v -> dirty s = [] -> wf_gstep s g -> grun s g = Some s' -> dirty s' = [].
Proof.
  intros HI Hd Hwf H. destruct (restart_or_not g) as [Hnr| ->].
  - exact (proj2 (g_pub s v g s' HI Hd Hwf Hnr H)).
  - exact (open_dirty s s' (grun_inv s GRestart s' H)).
Qed.

Lemma last_agree_step0 sP v g sP' : GInv sP v -> dirty sP = [] -> LastAgree sP -> wf_gstep sP g -> no_restart g ->
  grun sP g = Some sP' -> LastAgree sP'.
Proof. exact (last_agree_gstep sP v g sP'). Qed.

Definition PInv (s : st) (v : N -> N) : Prop := GInv s v /\ dirty s = [] /\ LastAgree s.

Lemma p_step s v g s' : PInv s v -> wf_gstep s g -> grun s g = Some s' -> PInv s' (gview s s' g v).
Proof.
  intros [HI [Hd HL]] Hwf H. destruct (g_pub_all s v g s' HI Hd HL Hwf H) as [HP Hd'].
  split; [exact (proj1 (g_step s v g s' HI Hwf H))|]. split; [exact Hd'|exact (pub_last_agree s s' _ HP HL)].
Qed.

Lemma pinv_init lock : 1 <= lock -> PInv (init lock) (fun _ => 0).
Proof.
  intros Hl. split; [exact (ginv_init lock Hl)|].
  split; [reflexivity|exact (last_agree_init lock)].
Qed.

Theorem p_history_invariant : forall gs s v s' v',
  PInv s v -> wf_gsteps s gs -> run_gsteps s v gs = Some (s', v') -> PInv s' v'.
Proof. exact (run_gsteps_ind PInv p_step). Qed.

Theorem g_history_restart_keeps_database lock gs s v s' :
  1 <= lock -> wf_gsteps (init lock) gs -> run_gsteps (init lock) (fun _ => 0) gs = Some (s, v) ->
  wf_restart s -> grun s GRestart = Some s' ->
  txid s' = txid s /\ chk s' = chk s /\ pageN s' = pageN s /\ ltxdir s' = ltxdir s /\ wal_file s' = [] /\
  (forall p, 1 <= p <= pageN s -> lpage s' p = lpage s p).
Proof.
  intros Hl Hwf Hrun Hwr Hg.
  destruct (p_history_invariant gs _ _ s v (pinv_init lock Hl) Hwf Hrun) as [HI [_ HL]].
  destruct (restart_pub s v s' HI HL Hwr (grun_inv s GRestart s' Hg)) as [HP Hf]. inversion HP. auto 10.
Qed.

Theorem g_history_last_agree lock gs s v f rest :
  1 <= lock -> wf_gsteps (init lock) gs -> run_gsteps (init lock) (fun _ => 0) gs = Some (s, v) ->
  rev (ltxdir s) = f :: rest ->
  l_commit f = pageN s /\ l_max f = txid s /\ l_post f = chk s /\
  forall p q, In (p, q) (l_pages f) -> 1 <= p <= l_commit f -> lpage s p = q.
Proof.
  intros Hl Hwf Hrun Hr.
  destruct (p_history_invariant gs _ _ s v (pinv_init lock Hl) Hwf Hrun) as [_ [_ HL]]. exact (HL f rest Hr).
Qed.

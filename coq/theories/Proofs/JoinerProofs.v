(* C01 without the no-collision premise, the late joiner: a node that starts empty and applies a snapshot of the primary - every
   page the primary would serve a reader, at the primary's position - holds the primary's logical database. *)
From Coq Require Import NArith List Lia Bool.
Require Import LF.Model.PageDB LF.Proofs.ChecksumProofs LF.Proofs.CaptureProofs LF.Proofs.HistoryProofs
  LF.Proofs.WalCheckpointProofs LF.Proofs.SqlCheckpointProofs LF.Proofs.ApplyHistoryProofs LF.Proofs.FollowProofs
  LF.Proofs.FollowWalProofs LF.Proofs.ExportProofs.
Import ListNotations.
Local Open Scope N_scope.

(* the pages of a snapshot: what readPage returns for every page of the database but the lock page *)
Fixpoint snap_pages (s : st) (p : N) (n : nat) : list (N * pg) :=
  match n with
  | O => []
  | S n' => (match read_page s p with Some q => if p =? lockpg s then [] else [(p, q)] | None => [] end) ++ snap_pages s (p + 1) n'
  end.
Definition snapshot_file (s : st) : ltxrec :=
  mkLtx 1 (txid s) 0 (chk s) (pageN s) (snap_pages s 1 (N.to_nat (pageN s))).

Lemma alookup_app {A} x (l1 l2 : list (N * A)) :
  alookup x (l1 ++ l2) = match alookup x l1 with Some q => Some q | None => alookup x l2 end.
Proof. induction l1 as [|[k v] l1 IH]; cbn [app alookup]; [reflexivity|]. destruct (x =? k); [reflexivity|exact IH]. Qed.

Lemma snap_lookup s : forall n a x, alookup x (snap_pages s a n) =
  if (a <=? x) && (x <? a + N.of_nat n) && negb (x =? lockpg s) then read_page s x else None.
Proof.
  induction n as [|n IH]; intros a x; cbn [snap_pages alookup].
  - destruct (N.leb_spec a x), (N.ltb_spec x (a + N.of_nat 0)); cbn [andb]; try reflexivity. lia.
  - rewrite alookup_app, IH.
    destruct (N.eq_dec x a) as [->|Hne].
    + destruct (N.leb_spec a a); [|lia]. destruct (N.ltb_spec a (a + N.of_nat (S n))); [|lia]. cbn [andb].
      destruct (N.leb_spec (a + 1) a); [lia|]. cbn [andb].
      destruct (read_page s a) as [q|]; [|destruct (negb (a =? lockpg s)); reflexivity].
      destruct (a =? lockpg s); cbn [alookup negb]; [reflexivity|]. rewrite N.eqb_refl. reflexivity.
    + assert (alookup x (match read_page s a with Some q => if a =? lockpg s then [] else [(a, q)] | None => [] end) = None) as ->.
      { destruct (read_page s a); [|reflexivity]. destruct (a =? lockpg s); [reflexivity|]. cbn [alookup]. destruct (N.eqb_spec x a); [contradiction|reflexivity]. }
      destruct (N.leb_spec a x), (N.leb_spec (a + 1) x), (N.ltb_spec x (a + 1 + N.of_nat n)), (N.ltb_spec x (a + N.of_nat (S n))); try lia; reflexivity.
Qed.

Lemma snap_keys_range s : forall n a k, In k (map fst (snap_pages s a n)) -> a <= k < a + N.of_nat n.
Proof.
  induction n as [|n IH]; intros a k Hin; cbn [snap_pages map] in Hin; [destruct Hin|].
  rewrite map_app, in_app_iff in Hin. destruct Hin as [Hin|Hin].
  - destruct (read_page s a); [|destruct Hin]. destruct (a =? lockpg s); [destruct Hin|]. destruct Hin as [<-|[]]. cbn [fst]. lia.
  - apply IH in Hin. lia.
Qed.
Lemma snap_keys_nodup s : forall n a, KeysNoDup (snap_pages s a n).
Proof.
  unfold KeysNoDup. induction n as [|n IH]; intros a; cbn [snap_pages map]; [constructor|].
  rewrite map_app. destruct (read_page s a) as [q|]; [|apply IH]. destruct (a =? lockpg s); [apply IH|].
  cbn [map app fst]. constructor; [|apply IH]. intros Hin. apply snap_keys_range in Hin. lia.
Qed.

Lemma read_page_lpage s : LatestEq s -> forall x, match read_page s x with Some q => q | None => zero_pg end = lpage s x.
Proof.
  intros HL x. unfold read_page, lpage. rewrite HL. destruct (alookup x (wpages s)); [reflexivity|].
  unfold fpg, pg_at, file_pg. reflexivity.
Qed.

(* a node that is sent a snapshot - it replaces its log and is applied over whatever the node holds: where the primary can
   read the page the node gets it, elsewhere it keeps what it held *)
Lemma snapshot_received sP sR0 sR : LatestEq sP -> lockpg sR0 = lockpg sP ->
  (forall x, 1 <= x <= pageN sP -> x <> lockpg sP -> read_page sP x = None -> fpg sR0 x = zero_pg) ->
  op_receive sR0 (snapshot_file sP) = (Done, sR) -> SimW sP sR.
Proof.
  intros HL Hlk Hall H. set (f := snapshot_file sP) in *.
  assert (Hwf : wf_ltx f).
  { split; cbn [l_pages f snapshot_file]; [|apply snap_keys_nodup].
    intros p q Hin. assert (In p (map fst (snap_pages sP 1 (N.to_nat (pageN sP))))) as Hk by (apply in_map_iff; exists (p, q); auto).
    apply snap_keys_range in Hk. lia. }
  destruct (receive_file sR0 f sR eq_refl Hwf) as [Rl [Rp [Rt [Rc Rf]]]]; [cbn [run_recv]; rewrite H; reflexivity|].
  cbn [l_commit l_max l_post l_pages f snapshot_file] in Rp, Rt, Rc, Rf. constructor; try congruence.
  intros x Hx Hnl. rewrite (Rf x Hx), snap_lookup.
  destruct (N.leb_spec 1 x); [|lia]. destruct (N.ltb_spec x (1 + N.of_nat (N.to_nat (pageN sP)))); [|lia].
  destruct (N.eqb_spec x (lockpg sP)); [contradiction|]. cbn [andb negb].
  rewrite <- (read_page_lpage sP HL x). specialize (Hall x Hx Hnl). destruct (read_page sP x); [reflexivity|auto].
Qed.

Theorem snapshot_joiner sP sR : LatestEq sP ->
  op_receive (init (lockpg sP)) (snapshot_file sP) = (Done, sR) -> SimW sP sR.
Proof.
  intros HL. apply snapshot_received; [exact HL|reflexivity|].
  intros x _ _ _. unfold fpg, pg_at. cbn [dbfile init]. destruct (N.to_nat (x - 1)); reflexivity.
Qed.

Theorem late_joiner_history lock hs zf acts c os s1 s2 s' v' sR :
  1 <= lock -> wf_hist (init lock) hs -> run_hsteps (init lock) hs = Some s1 ->
  wf_tx_any s1 zf acts -> run_group s1 (hops s1 (HTx zf acts c)) = (0, s2) -> wal_mode s2 = true ->
  wf_wops2 s2 os -> run_wops2 s2 (file_h s2) os = Some (s', v') ->
  op_receive (init lock) (snapshot_file s') = (Done, sR) ->
  txid sR = txid s' /\ chk sR = chk s' /\ pageN sR = pageN s' /\
  (forall p, 1 <= p <= pageN s' -> p <> lock -> fpg sR p = lpage s' p).
Proof.
  intros Hl Hwf H1 Hsw H2 Hm Hww H3 HR.
  destruct (switch_history_latest lock hs zf acts c os s1 s2 s' v' Hl Hwf H1 Hsw H2 Hm Hww H3) as [_ [_ [HL' El]]].
  rewrite <- El in HR. destruct (snapshot_joiner s' sR HL' HR) as [A B C D E].
  rewrite El in E. auto.
Qed.

Theorem snapshot_over_anything sP sR0 sR : LatestEq sP -> lockpg sR0 = lockpg sP ->
  (forall x, 1 <= x <= pageN sP -> x <> lockpg sP -> read_page sP x <> None) ->
  op_receive sR0 (snapshot_file sP) = (Done, sR) -> SimW sP sR.
Proof.
  intros HL Hlk Hall. apply (snapshot_received sP sR0 sR HL Hlk). intros x Hx Hnl Hr. contradiction (Hall x Hx Hnl Hr).
Qed.

Theorem resnapshot_history lock hs zf acts c os s1 s2 s' v' sR0 sR :
  1 <= lock -> wf_hist (init lock) hs -> run_hsteps (init lock) hs = Some s1 ->
  wf_tx_any s1 zf acts -> run_group s1 (hops s1 (HTx zf acts c)) = (0, s2) -> wal_mode s2 = true ->
  wf_wops2 s2 os -> run_wops2 s2 (file_h s2) os = Some (s', v') ->
  lockpg sR0 = lock -> (forall x, 1 <= x <= pageN s' -> x <> lock -> read_page s' x <> None) ->
  op_receive sR0 (snapshot_file s') = (Done, sR) ->
  txid sR = txid s' /\ chk sR = chk s' /\ pageN sR = pageN s' /\
  (forall p, 1 <= p <= pageN s' -> p <> lock -> fpg sR p = lpage s' p).
Proof.
  intros Hl Hwf H1 Hsw H2 Hm Hww H3 Hlk Hall HR.
  destruct (switch_history_latest lock hs zf acts c os s1 s2 s' v' Hl Hwf H1 Hsw H2 Hm Hww H3) as [_ [_ [HL' El]]].
  destruct (snapshot_over_anything s' sR0 sR HL' ltac:(congruence) ltac:(rewrite El; exact Hall) HR) as [A B C D E].
  rewrite El in E. auto.
Qed.

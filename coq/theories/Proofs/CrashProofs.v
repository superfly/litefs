(* C05: every crash point of a local rollback-journal commit, of a replica's apply and of a snapshot
   recovers to the image before or the image after - decided by the rename of the transaction file. *)
From Coq Require Import NArith List Bool Lia Arith.
Require Import LF.Model.PageDB LF.Model.Crash.
Import ListNotations.
Local Open Scope N_scope.

(* the last value written to page p in a list of writes *)
Fixpoint lastw (p : N) (l : list (N * pg)) : option pg :=
  match l with
  | [] => None
  | (k, q) :: r => match lastw p r with Some x => Some x | None => if k =? p then Some q else None end
  end.

Lemma write_pages_page l : forall f p,
  f_page (write_pages f l) p = match lastw p l with Some q => q | None => f_page f p end.
Proof.
  induction l as [|[k q] r IH]; intros f p; cbn [write_pages fold_left lastw]; [reflexivity|].
  change (fold_left _ r (write_page f (fst (k, q)) (snd (k, q)))) with (write_pages (write_page f k q) r).
  rewrite IH. destruct (lastw p r); [reflexivity|]. cbn [write_page f_page]. unfold upd.
  rewrite (N.eqb_sym p k). destruct (k =? p); reflexivity.
Qed.
Lemma lastw_app p a b : lastw p (a ++ b) = match lastw p b with Some x => Some x | None => lastw p a end.
Proof.
  induction a as [|[k q] r IH]; cbn [app lastw]; [destruct (lastw p b); reflexivity|].
  rewrite IH. destruct (lastw p b); [reflexivity|]. reflexivity.
Qed.
Lemma write_pages_app f a b : write_pages f (a ++ b) = write_pages (write_pages f a) b.
Proof. unfold write_pages. apply fold_left_app. Qed.
Lemma lastw_filter p (g : N * pg -> bool) l : (forall q, g (p, q) = true) ->
  lastw p (filter g l) = lastw p l.
Proof.
  intros Hg. induction l as [|[k q] r IH]; cbn [filter lastw]; [reflexivity|].
  destruct (g (k, q)) eqn:E; cbn [lastw]; rewrite IH; [reflexivity|].
  destruct (lastw p r); [reflexivity|]. destruct (N.eqb_spec k p) as [->|]; [rewrite Hg in E; discriminate|reflexivity].
Qed.
Lemma lastw_filter_out p (g : N * pg -> bool) l : (forall q, g (p, q) = false) -> lastw p (filter g l) = None.
Proof.
  intros Hg. induction l as [|[k q] r IH]; cbn [filter lastw]; [reflexivity|].
  destruct (g (k, q)) eqn:E; cbn [lastw]; [|exact IH]. rewrite IH.
  destruct (N.eqb_spec k p) as [->|]; [rewrite Hg in E; discriminate|reflexivity].
Qed.
Lemma lastw_in p q l : lastw p l = Some q -> In (p, q) l.
Proof.
  induction l as [|[k v] r IH]; cbn [lastw]; [discriminate|].
  destruct (lastw p r) eqn:E; [intros H; inversion H; subst; right; apply IH; reflexivity|].
  destruct (N.eqb_spec k p) as [->|]; [intros H; inversion H; left; reflexivity|discriminate].
Qed.
Lemma in_lastw p q l : In (p, q) l -> lastw p l <> None.
Proof.
  induction l as [|[k v] r IH]; [intros []|]. intros [E|H]; cbn [lastw].
  - injection E as -> ->. destruct (lastw p r); [discriminate|]. rewrite N.eqb_refl. discriminate.
  - specialize (IH H). destruct (lastw p r); [discriminate|contradiction].
Qed.

Lemma same_image_refl a : same_image a a. Proof. split; [reflexivity|intros; reflexivity]. Qed.
Lemma same_image_trans a b c : same_image a b -> same_image b c -> same_image a c.
Proof. intros [S1 P1] [S2 P2]. split; [congruence|]. intros p Hp. rewrite P1 by exact Hp. apply P2. rewrite <- S1. exact Hp. Qed.
Lemma same_image_sym a b : same_image a b -> same_image b a.
Proof. intros [S P]. split; [congruence|]. intros p Hp. symmetry. apply P. rewrite S. exact Hp. Qed.

Lemma reapply_image (a b : file) (f : ltxrec) :
  (forall p, 1 <= p <= l_commit f -> lastw p (l_pages f) = None -> f_page a p = f_page b p) ->
  same_image (truncate (write_pages a (l_pages f)) (l_commit f)) (truncate (write_pages b (l_pages f)) (l_commit f)).
Proof.
  intros H. split; [reflexivity|]. cbn [truncate f_size f_page]. intros p Hp.
  rewrite !write_pages_page. destruct (lastw p (l_pages f)) eqn:E; [reflexivity|]. apply H; assumption.
Qed.
Lemma reapply_same (a b : file) (f : ltxrec) : same_image a b -> l_commit f = f_size b ->
  same_image (truncate (write_pages a (l_pages f)) (l_commit f)) (truncate (write_pages b (l_pages f)) (l_commit f)).
Proof.
  intros [Hs Hp] Hc. apply reapply_image. intros p Hpp _. apply Hp. rewrite Hs, <- Hc. exact Hpp.
Qed.
Lemma reapply_fixes pages n (x y t : file) :
  same_image (truncate (write_pages y pages) n) t ->
  (forall p, 1 <= p <= n -> lastw p pages = None -> f_page x p = f_page t p) ->
  same_image (truncate (write_pages x pages) n) t.
Proof.
  intros [Hs Hy] Hx. split; [exact Hs|]. cbn [truncate f_size f_page] in *. intros p Hp.
  specialize (Hy p Hp). rewrite write_pages_page in *. destruct (lastw p pages) eqn:El; [exact Hy|exact (Hx p Hp El)].
Qed.

(* the database is the image of the newest transaction file *)
Definition Consistent (d : disk) : Prop :=
  k_journal d = None /\ same_image (k_db (reapply d)) (k_db d).

Lemma k_ltx_rollback d : k_ltx (rollback d) = k_ltx d.
Proof. unfold rollback. destruct (k_journal d) as [[? ?]|]; reflexivity. Qed.
Lemma k_ltx_reapply d : k_ltx (reapply d) = k_ltx d.
Proof. unfold reapply. destruct (newest d); reflexivity. Qed.
Lemma k_journal_rollback d : k_journal (rollback d) = None.
Proof. unfold rollback. destruct (k_journal d) as [[? ?]|] eqn:E; [reflexivity|exact E]. Qed.
Lemma k_journal_reapply d : k_journal (reapply d) = k_journal d.
Proof. unfold reapply. destruct (newest d); reflexivity. Qed.
Lemma newest_rollback d : newest (rollback d) = newest d.
Proof. unfold newest. rewrite k_ltx_rollback. reflexivity. Qed.
Lemma newest_recover d : newest (recover d) = newest d.
Proof. unfold newest, recover. rewrite k_ltx_reapply, k_ltx_rollback. reflexivity. Qed.
Lemma k_journal_recover d : k_journal (recover d) = None.
Proof. unfold recover. rewrite k_journal_reapply. apply k_journal_rollback. Qed.
Lemma disk_pos_recover d : disk_pos (recover d) = disk_pos d.
Proof. unfold disk_pos. rewrite newest_recover. reflexivity. Qed.
Lemma newest_snoc db j l f : newest {| k_db := db; k_journal := j; k_ltx := l ++ [f] |} = Some f.
Proof. unfold newest. cbn [k_ltx]. rewrite rev_app_distr. reflexivity. Qed.

Definition after_apply (d0 : disk) (f : ltxrec) : file := truncate (write_pages (k_db d0) (l_pages f)) (l_commit f).

(* The two ends of every crash argument.  Open of [d] gives [d0] back if [d] has d0's transaction files and its file,
   the journal rolled back, is d0's image; it gives the image after [f] if f is the newest file and the rolled-back file
   has d0's page wherever f carries none. *)
Lemma recover_old d0 d : Consistent d0 -> k_ltx d = k_ltx d0 -> same_image (k_db (rollback d)) (k_db d0) ->
  same_image (k_db (recover d)) (k_db d0) /\ disk_pos (recover d) = disk_pos d0.
Proof.
  intros [_ Hs] Hl Ha. split; [|rewrite disk_pos_recover; unfold disk_pos, newest; rewrite Hl; reflexivity].
  unfold recover, reapply, newest in *. rewrite k_ltx_rollback, Hl. destruct (rev (k_ltx d0)) as [|f0 r]; [exact Ha|]. cbn [k_db] in *.
  eapply same_image_trans; [|exact Hs]. apply reapply_same; [exact Ha|]. destruct Hs as [Hs _]. exact Hs.
Qed.
Lemma recover_new d0 f d : newest d = Some f ->
  (forall p, 1 <= p <= l_commit f -> lastw p (l_pages f) = None -> f_page (k_db (rollback d)) p = f_page (k_db d0) p) ->
  same_image (k_db (recover d)) (after_apply d0 f) /\ disk_pos (recover d) = (l_max f, l_post f).
Proof.
  intros Hn Hp. split; [|rewrite disk_pos_recover; unfold disk_pos; rewrite Hn; reflexivity].
  unfold recover, reapply. rewrite newest_rollback, Hn. apply reapply_image. exact Hp.
Qed.
Lemma recover_start d : Consistent d -> same_image (k_db (recover d)) (k_db d) /\ disk_pos (recover d) = disk_pos d.
Proof. intros HC. apply recover_old; [exact HC|reflexivity|]. unfold rollback. rewrite (proj1 HC). apply same_image_refl. Qed.

(* a crash point in a list of steps made of two parts: inside the first, or past it and at least one step into the second *)
Lemma firstn_app_cases {A} (a b : list A) k :
  firstn k (a ++ b) = firstn k a \/ exists m, firstn k (a ++ b) = a ++ firstn (S m) b.
Proof.
  rewrite firstn_app. destruct (Nat.le_gt_cases k (length a)) as [H|H].
  - left. replace (k - length a)%nat with 0%nat by lia. apply app_nil_r.
  - right. exists (k - length a - 1)%nat. rewrite firstn_all2 by lia. do 2 f_equal. lia.
Qed.

Lemma krun_prefix_inv (I : disk -> Prop) (ok : cstep -> Prop) :
  (forall d s, I d -> ok s -> I (kstep d s)) -> forall l d k, I d -> Forall ok l -> I (krun d (firstn k l)).
Proof.
  intros Hstep. induction l as [|s l IH]; intros d k Hi Hl; destruct k; try exact Hi.
  inversion_clear Hl. cbn [firstn krun fold_left]. apply IH; [apply Hstep|]; assumption.
Qed.

(* [f] is published and being applied over [d0]: no journal, f the newest file, and whatever page f does not carry is
   still d0's.  From the rename on every step of an apply, a snapshot or a drop keeps this, and Open turns it into the
   image after f. *)
Definition Applying (d0 : disk) (f : ltxrec) (d : disk) : Prop :=
  k_journal d = None /\ newest d = Some f /\ forall p, lastw p (l_pages f) = None -> f_page (k_db d) p = f_page (k_db d0) p.
Definition apply_step (f : ltxrec) (s : cstep) : Prop :=
  match s with KWritePage p q => In (p, q) (l_pages f) | KTruncate _ | KLtxRemoveOthers | KJournalEnd => True | _ => False end.

Lemma applying_step d0 f d s : Applying d0 f d -> apply_step f s -> Applying d0 f (kstep d s).
Proof.
  intros [Hj [Hn Hp]] Hs. destruct s; try contradiction; cbn [kstep]; (split; [first [exact Hj|reflexivity]|split]); cbn [k_db];
    try exact Hn; try exact Hp.
  - intros x Hx. cbn [write_page f_page]. unfold upd. destruct (N.eqb_spec x p) as [->|_]; [|exact (Hp x Hx)].
    exfalso. exact (in_lastw p q _ Hs Hx).
  - unfold newest in *. cbn [k_ltx]. destruct (rev (k_ltx d)) as [|x r]; [discriminate Hn|exact Hn].
Qed.
Lemma applying_renamed d0 f : Consistent d0 -> Applying d0 f (kstep d0 (KLtxRename f)).
Proof. intros [Hj _]. split; [exact Hj|]. split; [apply newest_snoc|reflexivity]. Qed.
Lemma applying_recovers d0 f d : Applying d0 f d ->
  same_image (k_db (recover d)) (after_apply d0 f) /\ disk_pos (recover d) = (l_max f, l_post f).
Proof. intros [Hj [Hn Hp]]. apply recover_new; [exact Hn|]. unfold rollback. rewrite Hj. intros p _. apply Hp. Qed.
Lemma apply_steps_ok (f : ltxrec) :
  Forall (apply_step f) (map (fun kv => KWritePage (fst kv) (snd kv)) (l_pages f) ++ [KTruncate (l_commit f)]).
Proof.
  apply Forall_app. split; [|repeat constructor]. apply Forall_forall. intros s Hs.
  apply in_map_iff in Hs. destruct Hs as [[p q] [<- Hin]]. exact Hin.
Qed.

(* an operation that renames f into place first and then only does what [apply_step] allows: a replica's apply,
   a snapshot (the removal of the older files after the rename), a drop *)
Lemma rename_first_crash_atomic (d0 : disk) (f : ltxrec) (l : list cstep) (k : nat) :
  Consistent d0 -> Forall (apply_step f) l ->
  let d := krun d0 (firstn k (KLtxRename f :: l)) in
  (same_image (k_db (recover d)) (k_db d0) /\ disk_pos (recover d) = disk_pos d0) \/
  (same_image (k_db (recover d)) (after_apply d0 f) /\ disk_pos (recover d) = (l_max f, l_post f)).
Proof.
  intros HC Hl d. destruct k as [|k]; [left; apply recover_start; exact HC|right].
  apply applying_recovers. unfold d. cbn [firstn krun fold_left].
  apply (krun_prefix_inv _ _ (applying_step d0 f)); [apply applying_renamed; exact HC|exact Hl].
Qed.

Theorem drop_crash_atomic (d0 : disk) (f : ltxrec) (k : nat) :
  Consistent d0 -> l_commit f = 0 ->
  let d := krun d0 (firstn k (drop_steps f)) in
  (same_image (k_db (recover d)) (k_db d0) /\ disk_pos (recover d) = disk_pos d0) \/
  (f_size (k_db (recover d)) = 0 /\ k_journal (recover d) = None /\ disk_pos (recover d) = (l_max f, l_post f)).
Proof.
  intros HC Hc d.
  destruct (rename_first_crash_atomic d0 f [KTruncate 0; KJournalEnd] k HC) as [Hold|[[Hs _] Hpos]]; [repeat constructor|left; exact Hold|right].
  split; [exact (eq_trans Hs Hc)|]. split; [apply k_journal_recover|exact Hpos].
Qed.

Definition writes_of (l : list cstep) : list (N * pg) :=
  flat_map (fun s => match s with KWritePage p q => [(p, q)] | _ => [] end) l.
Definition recs_of (l : list cstep) : list (N * pg) :=
  flat_map (fun s => match s with KJournalRecord p q => [(p, q)] | _ => [] end) l.

Lemma krun_app d a b : krun d (a ++ b) = krun (krun d a) b.
Proof. unfold krun. apply fold_left_app. Qed.
Lemma body_run b : forallb body_step b = true -> forall db recs orig ltx,
  krun {| k_db := db; k_journal := Some (recs, orig); k_ltx := ltx |} b =
  {| k_db := write_pages db (writes_of b); k_journal := Some (recs ++ recs_of b, orig); k_ltx := ltx |}.
Proof.
  induction b as [|s r IH]; intros Hb db recs orig ltx; cbn [krun fold_left writes_of recs_of flat_map write_pages].
  - rewrite app_nil_r. reflexivity.
  - cbn [forallb] in Hb. apply andb_true_iff in Hb. destruct Hb as [Hs Hr].
    change (fold_left kstep r ?x) with (krun x r).
    destruct s; cbn [body_step] in Hs; try discriminate; cbn [kstep k_journal k_db k_ltx].
    + rewrite (IH Hr). cbn [app]. rewrite <- app_assoc. reflexivity.
    + rewrite (IH Hr). cbn [app fold_left fst snd]. reflexivity.
Qed.

(* a page of the original file with no journal record so far has not been written, in any prefix [b] of the steps *)
Lemma journaled_unwritten orig p rest : forall b seen,
  journaled orig (b ++ rest) seen = true -> p <= f_size orig -> ~ In p seen -> lastw p (recs_of b) = None ->
  lastw p (writes_of b) = None.
Proof.
  induction b as [|s r IH]; intros seen Hj Hp Hs Hr; [reflexivity|].
  destruct s as [o|k pre|k q|n|g| |]; cbn [journaled writes_of recs_of flat_map app lastw] in *;
    fold (recs_of r) in *; fold (writes_of r) in *; try (apply (IH seen); assumption).
  - destruct (lastw p (recs_of r)) eqn:E; [discriminate|].
    destruct (k =? p) eqn:Ek; [discriminate|]. apply N.eqb_neq in Ek.
    apply (IH (k :: seen)); try assumption. intros [E'|E']; [congruence|contradiction].
  - apply andb_true_iff in Hj. destruct Hj as [Hw Hj].
    rewrite (IH seen Hj Hp Hs Hr). destruct (N.eqb_spec k p) as [->|Hne]; [|reflexivity].
    exfalso. destruct (N.leb_spec p (f_size orig)); [|lia].
    apply existsb_exists in Hw. destruct Hw as [x [Hin Hx]]. apply N.eqb_eq in Hx. subst x. contradiction.
Qed.

Lemma in_recs_of p q b : In (p, q) (recs_of b) -> In (KJournalRecord p q) b.
Proof.
  induction b as [|s r IH]; cbn [recs_of flat_map]; [tauto|]. intros H. apply in_app_or in H. destruct H as [H|H].
  - destruct s; cbn in H; try contradiction. destruct H as [H|[]]. inversion H; subst. left; reflexivity.
  - right. apply IH. exact H.
Qed.

Section LocalCommit.
  Variables (d0 : disk) (body : list cstep) (f : ltxrec) (n1 : N).
  Let db0 := k_db d0.
  Let n0 := f_size (k_db d0).
  Let after := truncate (write_pages db0 (writes_of body)) n1.

  Hypothesis HC : Consistent d0.
  Hypothesis Hbody : forallb body_step body = true.
  (* SQLite journals a page of the original file before it overwrites it, with its original content *)
  Hypothesis Hjournaled : journaled db0 body [] = true.
  Hypothesis Hpre : forall p pre, In (KJournalRecord p pre) body -> pre = f_page db0 p.
  (* C02: the transaction file applied to the previous image gives the new image, and carries every appended page *)
  Hypothesis Hcommit : l_commit f = n1.
  Hypothesis Hfile : same_image (truncate (write_pages db0 (l_pages f)) n1) after.
  Hypothesis Hcover : forall p, n0 < p <= n1 -> lastw p (l_pages f) <> None.

  Lemma hot_run b rest : body = b ++ rest ->
    krun d0 (KJournalBegin n0 :: b) = {| k_db := write_pages db0 (writes_of b); k_journal := Some (recs_of b, n0); k_ltx := k_ltx d0 |}.
  Proof.
    intros Hsplit. rewrite Hsplit, forallb_app in Hbody. apply andb_true_iff in Hbody.
    exact (body_run b (proj1 Hbody) db0 [] n0 (k_ltx d0)).
  Qed.

  Lemma rollback_restores_image b rest ltx : body = b ++ rest ->
    let d := {| k_db := write_pages db0 (writes_of b); k_journal := Some (recs_of b, n0); k_ltx := ltx |} in
    same_image (k_db (rollback d)) db0.
  Proof.
    intros Hsplit d. unfold rollback. cbn [d k_journal k_db]. split; [reflexivity|]. cbn [truncate f_size f_page].
    intros p Hp. rewrite !write_pages_page.
    rewrite lastw_filter by (intros q; cbn [fst]; apply N.leb_le; lia).
    destruct (lastw p (recs_of b)) as [pre|] eqn:E.
    - apply Hpre. rewrite Hsplit. apply in_or_app. left. apply in_recs_of, lastw_in. exact E.
    - rewrite Hsplit in Hjournaled.
      rewrite (journaled_unwritten db0 p rest b [] Hjournaled); [reflexivity|unfold n0 in Hp; unfold db0; lia|intros []|exact E].
  Qed.

  (* a page that f does not carry is one the transaction did not change *)
  Lemma absent_page_unchanged p : 1 <= p <= n1 -> lastw p (l_pages f) = None ->
    f_page (write_pages db0 (writes_of body)) p = f_page db0 p.
  Proof.
    intros Hp El. destruct Hfile as [_ H]. specialize (H p Hp). cbn [truncate f_page] in H.
    rewrite write_pages_page, El in H. symmetry. exact H.
  Qed.

  Lemma recover_committed d : newest d = Some f ->
    (forall p, 1 <= p <= n1 -> lastw p (l_pages f) = None -> f_page (k_db (rollback d)) p = f_page db0 p) ->
    same_image (k_db (recover d)) after /\ disk_pos (recover d) = (l_max f, l_post f).
  Proof.
    intros Hn Hp. rewrite <- Hcommit in Hp. destruct (recover_new d0 f d Hn Hp) as [Hs Hpos]. split; [|exact Hpos].
    eapply same_image_trans; [exact Hs|]. unfold after_apply. rewrite Hcommit. exact Hfile.
  Qed.

  Theorem commit_crash_atomic (k : nat) :
    let d := krun d0 (firstn k (tx_steps n0 body f n1)) in
    (same_image (k_db (recover d)) db0 /\ disk_pos (recover d) = disk_pos d0) \/
    (same_image (k_db (recover d)) after /\ disk_pos (recover d) = (l_max f, l_post f)).
  Proof.
    intros d. unfold tx_steps in d.
    destruct k as [|k]; [left; apply recover_start; exact HC|].
    cbn [app firstn] in d.
    destruct (firstn_app_cases body [KLtxRename f; KJournalEnd; KTruncate n1] k) as [Eb|[m Em]].
    - (* inside the body: before the rename, the journal hot *)
      left. pose proof (eq_sym (firstn_skipn k body)) as Hsplit.
      unfold d. rewrite Eb, (hot_run _ _ Hsplit).
      apply recover_old; [exact HC|reflexivity|exact (rollback_restores_image _ _ _ Hsplit)].
    - right. pose proof (eq_sym (app_nil_r body)) as Hsplit.
      cbn [firstn] in Em. unfold d. rewrite Em, app_comm_cons, krun_app, (hot_run _ _ Hsplit).
      destruct m as [|m]; cbn [firstn krun fold_left kstep k_db k_journal k_ltx].
      + (* rename done, journal still hot: rolled back to the old pages; f carries every page beyond the old size *)
        apply recover_committed; [apply newest_snoc|]. intros p Hp El.
        destruct (N.le_gt_cases p n0) as [Hle|Hgt]; [|exfalso; apply (Hcover p); [lia|exact El]].
        destruct (rollback_restores_image _ _ (k_ltx d0 ++ [f]) Hsplit) as [Hs Hr]. apply Hr.
        rewrite Hs. exact (conj (proj1 Hp) Hle).
      + (* journal ended, perhaps the file cut to its new size: the written pages stand *)
        destruct m; cbn [firstn]; rewrite ?firstn_nil; cbn [fold_left kstep k_db k_journal k_ltx].
        * apply recover_committed; [apply newest_snoc|exact absent_page_unchanged].
        * apply recover_committed; [apply newest_snoc|exact absent_page_unchanged].
  Qed.
End LocalCommit.

Lemma recover_is_consistent d : Consistent (recover d).
Proof.
  split; [apply k_journal_recover|]. unfold reapply at 1. rewrite newest_recover.
  destruct (newest d) as [f|] eqn:Ef; [|apply same_image_refl]. cbn [k_db].
  unfold recover, reapply. rewrite newest_rollback, Ef. cbn [k_db].
  (* re-applying f to a file that is f applied already *)
  apply (reapply_fixes _ _ _ (k_db (rollback d))); [apply same_image_refl|reflexivity].
Qed.

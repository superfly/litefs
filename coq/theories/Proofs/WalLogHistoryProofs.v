(* C03 along histories: every committed WAL transaction is captured exactly once, in order, and a checkpoint of any kind
   publishes nothing - the log after any history is one file per transaction, numbered 1, 2, ... *)
From Coq Require Import NArith List.
Require Import LF.Model.PageDB LF.Proofs.XorLib LF.Proofs.ChecksumProofs LF.Proofs.CaptureProofs
  LF.Proofs.ChainProofs LF.Proofs.HistoryProofs LF.Proofs.WalHistoryProofs LF.Proofs.WalCheckpointProofs
  LF.Proofs.SqlCheckpointProofs LF.Proofs.LogHistoryProofs.
Import ListNotations.
Local Open Scope N_scope.

Lemma wop2_ops_keep_pos s o : (exists fr c, o = W2Commit fr c) \/ Forall keeps_pos (wop2_ops s o).
Proof.
  destruct o as [fr c| |p|p q|]; [left; eauto|right..]; cbn [wop2_ops].
  - repeat constructor.
  - destruct (alookup p (wpages s)); repeat constructor.
  - repeat constructor.
  - apply Forall_app. split; [apply wr_ops_keep_pos|repeat constructor].
Qed.

Lemma wop2_ops_log s o s' : run_group s (wop2_ops s o) = (0, s') ->
  (ltxdir s' = ltxdir s /\ txid s' = txid s) \/
  (exists fr c f, o = W2Commit fr c /\ ltxdir s' = ltxdir s ++ [f] /\ l_min f = txid s + 1 /\ l_max f = txid s + 1 /\
                  l_pre f = chk s /\ l_post f = chk s' /\ l_commit f = c /\ txid s' = txid s + 1).
Proof.
  intros H. destruct (wop2_ops_keep_pos s o) as [[fr [c ->]]|Hq].
  - apply run_group_one in H. cbn [step] in H.
    destruct (commit_wal_file s fr c s' H) as [f [E1 [E2 [E3 [E4 [E5 [E6 [_ [E8 _]]]]]]]]].
    right. exists fr, c, f. repeat split; auto.
  - left. destruct (run_group_keeps_pos _ s s' Hq H) as [A [_ C]]. auto.
Qed.

Lemma wop2_log s v o s' : WL s v -> WK s v -> wf_wop2 s o -> run_group s (wop2_ops s o) = (0, s') ->
  (ltxdir s' = ltxdir s /\ txid s' = txid s) \/
  (exists fr c f, o = W2Commit fr c /\ ltxdir s' = ltxdir s ++ [f] /\ l_min f = txid s + 1 /\ l_max f = txid s + 1 /\
                  l_pre f = chk s /\ l_post f = chk s' /\ l_commit f = c /\ txid s' = txid s + 1).
Proof. intros _ _ _. apply wop2_ops_log. Qed.

Lemma wop2_log_step s o s' : run_group s (wop2_ops s o) = (0, s') -> log_step s s'.
Proof.
  intros H. destruct (wop2_ops_log s o s' H) as [A|[fr [c [f [_ [A [B [C [_ [_ [_ D]]]]]]]]]]]; [left; exact A|right; exists f; auto].
Qed.

Theorem wal_log_invariant : forall os s v s' v', LogIds s -> run_wops2 s v os = Some (s', v') -> LogIds s'.
Proof.
  induction os as [|o r IH]; intros s v s' v' Hl H; cbn [run_wops2] in H.
  - inversion H; subst. exact Hl.
  - destruct (run_group s (wop2_ops s o)) as [code s1] eqn:E. destruct code; [|discriminate].
    exact (IH s1 _ s' v' (logids_step s s1 Hl (wop2_log_step s o s1 E)) H).
Qed.

Theorem wal_log_once_in_order lock hs zf acts c os s1 s2 s' v' :
  1 <= lock -> wf_hist (init lock) hs -> run_hsteps (init lock) hs = Some s1 ->
  wf_tx_any s1 zf acts -> run_group s1 (hops s1 (HTx zf acts c)) = (0, s2) -> wal_mode s2 = true ->
  wf_wops2 s2 os -> run_wops2 s2 (file_h s2) os = Some (s', v') ->
  map (fun f => (l_min f, l_max f)) (ltxdir s') = map (fun t => (t, t)) (seqN 1 (N.to_nat (txid s'))) /\
  length (ltxdir s') = N.to_nat (txid s').
Proof.
  intros _ _ H1 _ H2 _ _ H3.
  pose proof (log_history_invariant hs (init lock) s1 eq_refl H1) as Hl1.
  (* the switch is a rollback-journal transaction like any other *)
  pose proof (logids_step s1 s2 Hl1 (hops_log_step s1 _ s2 H2)) as Hl2.
  pose proof (wal_log_invariant os s2 (file_h s2) s' v' Hl2 H3) as A.
  split; [exact A|]. apply (f_equal (@length _)) in A. rewrite !map_length, seqN_length in A. exact A.
Qed.

(* C01 without the no-collision premise, WAL mode.  The logical page [lpage s p] is the last committed version of p in the log
   of s, else the page its database file holds.  A WAL commit publishes the last frame of every page it wrote and changes
   no other logical page; a checkpoint of any kind publishes nothing and changes none (wop2_pub). *)
From Coq Require Import NArith List Lia Bool.
Require Import LF.Model.PageDB LF.Proofs.ChecksumProofs LF.Proofs.CaptureProofs LF.Proofs.ChainProofs
  LF.Proofs.HistoryProofs LF.Proofs.WalHistoryProofs LF.Proofs.WalCheckpointProofs LF.Proofs.SqlCheckpointProofs
  LF.Proofs.ApplyHistoryProofs LF.Proofs.ComposeProofs LF.Proofs.FollowProofs.
Import ListNotations.
Local Open Scope N_scope.

(* the logical page of a node, in either journal mode: with nothing in the log it is the file's (lpage_nolog) *)
Definition lpage (s : st) (p : N) : pg := match alookup p (wpages s) with Some q => q | None => fpg s p end.

Record SimW (sP sR : st) : Prop := {
  sw_lock : lockpg sR = lockpg sP; sw_pn : pageN sR = pageN sP; sw_tx : txid sR = txid sP; sw_chk : chk sR = chk sP;
  sw_pages : forall p, 1 <= p <= pageN sP -> p <> lockpg sP -> fpg sR p = lpage sP p
}.

Lemma lpage_nolog s x : wal_file s = [] -> lpage s x = fpg s x.
Proof. intros Hf. unfold lpage. rewrite (wpages_nil_of_file s Hf). reflexivity. Qed.
Lemma lpage_hit s x q : alookup x (wpages s) = Some q -> lpage s x = q.
Proof. intros E. unfold lpage. rewrite E. reflexivity. Qed.

Lemma pub_nolog s s' fs : wal_file s = [] -> wal_file s' = [] -> Pub s s' (fpg s) (fpg s') fs -> Pub s s' (lpage s) (lpage s') fs.
Proof. intros Hf Hf'. exact (pub_ext _ _ _ _ _ _ _ (fun x => lpage_nolog s x Hf) (fun x => lpage_nolog s' x Hf')). Qed.

Lemma simw_pub sP sP' fs sR sR' : Pub sP sP' (lpage sP) (lpage sP') fs -> SimW sP sR -> run_recv sR fs = Some sR' -> SimW sP' sR'.
Proof.
  intros HP [A B C D E] HR. destruct (pub_follow sP sP' _ _ _ sR sR' HP A B C D E HR) as [A' [B' [C' [D' E']]]].
  constructor; assumption.
Qed.

Lemma tx_pages_lookup s frames commit p : alookup p (tx_pages s frames commit) =
  if negb (p =? lockpg s) && (p <=? commit) then last_frame p frames else None.
Proof. apply alookup_tx_pages. Qed.

Lemma commit_wal_file_grows s fr c s' : op_commit_wal s fr c = (Done, s') ->
  wal_file s' = wal_file s ++ tx_frames fr c /\ lockpg s' = lockpg s.
Proof.
  intros H. apply op_commit_wal_inv in H. destruct H as (new & post & s1 & _ & Eck & _ & ->).
  pose proof (frame_checksum s c new) as F. rewrite Eck in F. cbn [snd] in F.
  cbn [wal_file lockpg with_pos with_wal]. rewrite (fr_wal_file _ _ F), (fr_lockpg _ _ F). auto.
Qed.

(* the log's last committed versions after a commit, for a log that ended at a commit: no invariant about checksums is
   involved *)
Lemma commit_wpages s fr c s' : fst (fst (wscan s)) = [] -> fr <> [] -> c <> 0 -> op_commit_wal s fr c = (Done, s') ->
  forall x, alookup x (wpages s') = match last_frame x fr with Some q => Some q | None => alookup x (wpages s) end.
Proof.
  intros Hs Hne Hc0 H. exact (wpages_commit s s' fr c Hs Hne Hc0 (proj1 (commit_wal_file_grows s fr c s' H))).
Qed.
Lemma commit_wpages_lookup s v fr c s' : WL s v -> WK s v -> fr <> [] -> c <> 0 -> op_commit_wal s fr c = (Done, s') ->
  forall x, alookup x (wpages s') = match last_frame x fr with Some q => Some q | None => alookup x (wpages s) end.
Proof. intros _ HK. exact (commit_wpages s fr c s' (k_scan s v HK)). Qed.

Lemma wal_commit_pub sP fr c sP' : fst (fst (wscan sP)) = [] -> wf_wal2 sP fr c -> op_commit_wal sP fr c = (Done, sP') ->
  Pub sP sP' (lpage sP) (lpage sP') (new_files sP sP').
Proof.
  intros Hscan [[Hg Hp1] [Hne [Hc0 Hpos]]] H.
  pose proof (commit_wpages sP fr c sP' Hscan Hne Hc0 H) as Hlook.
  destruct (commit_wal_file sP fr c sP' H) as [f [E1 [E2 [E3 [E4 [E5 [E6 [E7 [E8 [E9 E10]]]]]]]]]].
  rewrite (new_files_snoc sP sP' f E1). apply (pub_one _ _ _ _ f (rev (ltxdir sP))).
  - rewrite E1. apply rev_unit.
  - exact (proj2 (commit_wal_file_grows sP fr c sP' H)).
  - unfold refused, extends_pos. rewrite E2, E4, !N.eqb_refl. apply andb_false_r.
  - split; rewrite E7; [|apply tx_pages_keys].
    intros p q Hin. apply tx_pages_in in Hin. destruct Hin as [_ [_ Hl]]. apply last_frame_in in Hl. apply (Hpos p q Hl).
  - congruence.
  - congruence.
  - exact E5.
  - intros p q Hin _. rewrite E7 in Hin. apply tx_pages_in in Hin. destruct Hin as [_ [_ Hl]].
    apply lpage_hit. rewrite Hlook, Hl. reflexivity.
  - intros x Hx Hnl Ea. rewrite E6 in Hx. rewrite E7, tx_pages_lookup in Ea.
    destruct (N.eqb_spec x (lockpg sP)); [contradiction|]. destruct (N.leb_spec x c); [|lia]. cbn [negb andb] in Ea.
    split.
    + destruct (N.le_gt_cases x (pageN sP)); [assumption|]. destruct (Hg x ltac:(lia) Hnl) as [q Hq].
      apply last_frame_some in Hq. congruence.
    + unfold lpage. rewrite Hlook, Ea, (fpg_ext sP' sP x E10). reflexivity.
Qed.

Lemma followw_commit sP sR v fr c sP' sR' : WL sP v -> WK sP v -> SimW sP sR -> wf_wal2 sP fr c ->
  op_commit_wal sP fr c = (Done, sP') -> run_recv sR (new_files sP sP') = Some sR' -> SimW sP' sR'.
Proof. intros _ HK HS Hwf H. exact (simw_pub sP sP' _ sR sR' (wal_commit_pub sP fr c sP' (k_scan sP v HK) Hwf H) HS). Qed.

(* LiteFS's checkpoint copies the log's pages into the file and cuts it to the size the last commit names: the file then
   holds the logical database (the hypotheses are what ginv_wpages provides) *)
Lemma checkpoint_lpage s n : (forall p q, In (p, q) (wpages s) -> 1 <= p) -> KeysNoDup (wpages s) ->
  (wpages s <> [] -> snd (wscan s) = n) -> forall x, 1 <= x <= n -> fpg (snd (op_checkpoint s)) x = lpage s x.
Proof.
  intros Hpos Hnd Hlast x Hx. unfold op_checkpoint. rewrite wal_committed_scan. fold (wscan s). fold (wpages s).
  destruct (wpages s) as [|x0 r0] eqn:Ep.
  - cbn [snd]. unfold lpage. rewrite Ep. reflexivity.
  - rewrite Hlast by discriminate. rewrite <- Ep in *. clear Ep x0 r0. cbn [snd].
    unfold fpg at 1. cbn [dbfile with_wal with_pos].
    fold (fpg (truncate_db (fold_left (fun a kv => write_db_page a (fst kv) (snd kv)) (wpages s) s) n) x).
    rewrite fpg_truncate_db by lia. destruct (N.leb_spec x n); [|lia].
    rewrite fpg_fold_write by (assumption || lia). reflexivity.
Qed.

Lemma lpage_checkpoint s v s' : WL s v -> WK s v -> op_checkpoint s = (Done, s') ->
  forall x, 1 <= x <= pageN s -> lpage s' x = lpage s x.
Proof.
  intros _ HK H x Hx. assert (s' = snd (op_checkpoint s)) as -> by (rewrite H; reflexivity).
  rewrite lpage_nolog by (unfold op_checkpoint; destruct (wal_committed _ _ _ _); reflexivity).
  exact (checkpoint_lpage s (pageN s) (k_pos s v HK) (k_nodup s v HK) (k_last s v HK) x Hx).
Qed.

(* a page of the log copied into the file by SQLite: the log still answers *)
Lemma lpage_backfill s p q x : alookup p (wpages s) <> None -> 1 <= p -> 1 <= x ->
  lpage (write_db_page s p q) x = lpage s x.
Proof.
  intros Hin Hp Hx. unfold lpage. change (wpages (write_db_page s p q)) with (wpages s).
  destruct (alookup x (wpages s)) as [qx|] eqn:E; [reflexivity|].
  rewrite fpg_write by assumption. destruct (N.eqb_spec x p) as [->|_]; [contradiction|reflexivity].
Qed.

Lemma lpage_sqlckpt s v s' : WL s v -> WK s v -> run_group s (sql_ckpt_ops s) = (0, s') ->
  ltxdir s' = ltxdir s /\ forall x, 1 <= x <= pageN s -> lpage s' x = lpage s x.
Proof.
  intros HW HK H. rewrite (sql_ckpt_run s s' (w_w s v HW) (w_mode s v HW) H).
  set (sa := fold_left (fun a kv => write_db_page a (fst kv) (snd kv)) (backfill_list s) s).
  split. { exact (fr_ltxdir _ _ (frame_trans _ _ _ (frame_fold_write _ s) (frame_truncate_db sa (pageN s)))). }
  intros x Hx.
  rewrite lpage_nolog by reflexivity. change (fpg (truncate_db sa (pageN s)) x = lpage s x).
  rewrite fpg_truncate_db by lia. destruct (N.leb_spec x (pageN s)); [|lia].
  unfold sa. rewrite fpg_fold_write; [| |apply keys_filter; exact (k_nodup s v HK)|lia].
  - unfold backfill_list. rewrite (alookup_filter_key (fun k => (1 <=? k) && (k <=? pageN s))).
    destruct (N.leb_spec 1 x), (N.leb_spec x (pageN s)); try lia. reflexivity.
  - intros p q Hin. apply filter_In in Hin. apply (k_pos s v HK p q). tauto.
Qed.

Lemma backfill_pub s p q : alookup p (wpages s) <> None -> 1 <= p ->
  Pub s (write_db_page s p q) (lpage s) (lpage (write_db_page s p q)) (new_files s (write_db_page s p q)).
Proof.
  intros Hin Hp. rewrite new_files_same by reflexivity. apply pub_none; try reflexivity.
  intros x Hx. apply lpage_backfill; [exact Hin|exact Hp|lia].
Qed.

Lemma wop2_pub s v o s' : WL s v -> WK s v -> wf_wop2 s o -> run_group s (wop2_ops s o) = (0, s') ->
  Pub s s' (lpage s) (lpage s') (new_files s s').
Proof.
  intros HW HK Hwf H. destruct o as [fr c| |p|p q|]; cbn [wop2_ops wf_wop2] in *.
  - apply run_group_one in H. exact (wal_commit_pub s fr c s' (k_scan s v HK) Hwf H).
  - apply run_group_one in H. cbn [step] in H.
    destruct (ckpt_step s v s' HW HK H) as [_ [_ [El [_ [Ep _]]]]]. destruct (pos_checkpoint s Done s' H) as [Et [Ec Ed]].
    rewrite new_files_same by exact Ed. apply pub_none; try assumption. exact (lpage_checkpoint s v s' HW HK H).
  - destruct (alookup p (wpages s)) as [q|] eqn:Eq.
    + apply run_group_one in H. cbn [step] in H. rewrite (op_write_page_wal s p q (w_w s v HW) (w_mode s v HW)) in H.
      injection H as <-. apply backfill_pub; [rewrite Eq; discriminate|lia].
    + cbn [run_group] in H. injection H as <-. rewrite new_files_same by reflexivity. apply pub_none; reflexivity.
  - apply run_group_one in H. cbn [step] in H. rewrite (op_write_page_wal s p q (w_w s v HW) (w_mode s v HW)) in H.
    injection H as <-. apply backfill_pub; [apply Hwf|lia].
  - destruct (lpage_sqlckpt s v s' HW HK H) as [Ed Hlp]. rewrite new_files_same by exact Ed.
    rewrite (sql_ckpt_run s s' (w_w s v HW) (w_mode s v HW) H) in *.
    apply pub_none; try exact Hlp; apply (frame_trans _ _ _ (frame_fold_write (backfill_list s) s) (frame_truncate_db _ (pageN s))).
Qed.

(* [v], the primary's view of C04_wal_full_history, is carried along and never read: the run does not depend on it *)
Fixpoint followw (sP sR : st) (v : N -> N) (os : list wop2) : option (st * st) :=
  match os with
  | [] => Some (sP, sR)
  | o :: r => match run_group sP (wop2_ops sP o) with
              | (0, sP') => match run_recv sR (new_files sP sP') with
                            | Some sR' => followw sP' sR' (wop2_view (lockpg sP) o v) r
                            | None => None
                            end
              | _ => None
              end
  end.

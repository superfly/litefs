(* C07: on a node without write authority no application-level operation changes the database. *)
From Coq Require Import NArith List Bool Lia.
Require Import LF.Model.PageDB LF.Model.ReadOnly LF.Proofs.ChecksumProofs.
Import ListNotations.
Local Open Scope N_scope.

(* a node that writes no WAL of its own: nothing committed in a wal file, no wal bookkeeping *)
Definition quiet (s : st) : Prop :=
  writeable s = false /\ wal_latest s = [] /\ wal_file s = [] /\ wal_chk s = [].

Lemma export_pages_ext s s' : forall n p,
  (forall x, p <= x < p + N.of_nat n -> read_page s' x = read_page s x) -> export_pages s' p n = export_pages s p n.
Proof.
  induction n as [|n IH]; intros p H; cbn [export_pages]; [reflexivity|].
  rewrite H by lia. rewrite IH; [reflexivity|]. intros x Hx. apply H. lia.
Qed.

Lemma view_ext s s' :
  (forall p, 1 <= p <= pageN s -> read_page s' p = read_page s p) -> pageN s' = pageN s -> txid s' = txid s -> chk s' = chk s ->
  ltxdir s' = ltxdir s -> wal_mode s' = wal_mode s -> view s' = view s.
Proof.
  intros Hr Hp Ht Hc Hl Hw. unfold view, op_export. cbn [fst snd]. rewrite Hp, Ht, Hc, Hl, Hw.
  rewrite (export_pages_ext s s'); [reflexivity|]. intros x Hx. apply Hr. lia.
Qed.
Lemma view_frame s s' : Frame s s' -> dbfile s' = dbfile s -> view s' = view s.
Proof.
  intros [] Hf. apply view_ext; try assumption. intros p _. unfold read_page, file_pg. rewrite fr_wal_latest, Hf. reflexivity.
Qed.
Lemma quiet_frame s s' : Frame s s' -> quiet s -> quiet s'.
Proof. intros [] [A [B [C D]]]. unfold quiet. repeat split; congruence. Qed.

Lemma nth_error_firstn {A} (l : list A) n i : (i < n)%nat -> nth_error (firstn n l) i = nth_error l i.
Proof.
  revert n i. induction l as [|x l IH]; intros n i H; [destruct n, i; reflexivity|].
  destruct n; [lia|]. destruct i; cbn; [reflexivity|]. apply IH. lia.
Qed.

(* the operations that start with LiteFS's Writeable() gate *)
Definition gated (o : op) : bool :=
  match o with OWrite _ _ | OWriteJ _ _ | OCommitJournal _ | ODrop | OImport _ _ _ => true | _ => false end.
Lemma gated_refused s o : writeable s = false -> gated o = true -> step s o = (Failed, s).
Proof.
  intros Hw. destruct o; intros Hg; try discriminate Hg; cbn [step];
    unfold op_write_page, op_write_page_j, op_commit_journal, op_drop, op_import; rewrite Hw; reflexivity.
Qed.

Lemma quiet_with_wal s : quiet s -> with_wal s [] [] [] = s.
Proof. intros [_ [Hl [Hf Hc]]]. destruct s. cbn in *. subst. reflexivity. Qed.

Lemma readonly_step s o : quiet s -> app_op o = true ->
  view (snd (step s o)) = view s /\ quiet (snd (step s o)) /\ (mutating o = true -> fst (step s o) <> Done).
Proof.
  intros Hq Ha. pose proof Hq as [Hw [Hl [Hf Hc]]].
  destruct (gated o) eqn:Hg.
  { rewrite (gated_refused s o Hw Hg). cbn [fst snd]. repeat split; try assumption. intros _; discriminate. }
  destruct o as [p q|n|c| | | |fr c| | | |b|f|pages commit ok|ages backup hwm|c2|pj qj|pz qz]; cbn [app_op] in Ha; try discriminate Ha; try discriminate Hg; cbn [step mutating].
  - unfold op_truncate. destruct (N.eqb_spec n (pageN s)) as [E|E]; cbn [negb fst snd].
    2:{ repeat split; try assumption. intros H; discriminate H. }
    subst n. pose proof (frame_truncate_db s (pageN s)) as F. split; [|split; [exact (quiet_frame _ _ F Hq)|intros H; discriminate H]].
    destruct F. apply view_ext; try assumption. intros p Hp.
    unfold read_page, file_pg. rewrite fr_wal_latest, Hl. cbn [alookup].
    unfold truncate_db, reset_after. rewrite dbfile_clear_from. cbn [with_file dbfile]. apply nth_error_firstn. lia.
  - unfold op_invalidate_journal. cbn [fst snd]. split; [apply view_ext; try reflexivity; intros p _; reflexivity|].
    split; [unfold quiet, with_dirty; cbn; tauto|intros H; discriminate H].
  - unfold op_wal_header. rewrite (quiet_with_wal s Hq). cbn [fst snd]. repeat split; try assumption. intros H; discriminate H.
  - unfold op_wal_reset. rewrite (quiet_with_wal s Hq). cbn [fst snd]. repeat split; try assumption. intros H; discriminate H.
  - (* the checksum runs, then the gate exits *) unfold op_commit_wal.
    destruct (truncated_pages _ _ _ _) as [new|]; [|cbn; repeat split; try assumption; intros _; discriminate].
    pose proof (frame_checksum s c new) as Hs. pose proof (dbfile_checksum s c new) as Hdf.
    pose proof (quiet_frame _ _ Hs Hq) as Hq1.
    destruct (checksum s c new) as [[post|] s1]; cbn [snd] in Hs, Hdf, Hq1.
    + assert (writeable s1 = false) as Hw1 by (rewrite (fr_writeable _ _ Hs); assumption). rewrite Hw1. cbn [negb fst snd].
      split; [exact (view_frame _ _ Hs Hdf)|]. split; [exact Hq1|intros _; discriminate].
    + cbn [fst snd]. split; [exact (view_frame _ _ Hs Hdf)|]. split; [exact Hq1|intros _; discriminate].
  - (* nothing committed in the wal file *) unfold op_checkpoint. rewrite Hf. cbn [wal_committed].
    rewrite (quiet_with_wal s Hq). cbn [fst snd]. repeat split; try assumption. intros H; discriminate H.
  - cbn [fst snd]. repeat split; try assumption. intros H; discriminate H.
Qed.

Theorem readonly_run ops : forall s, quiet s -> forallb app_op ops = true ->
  view (run_all s ops) = view s /\ quiet (run_all s ops).
Proof.
  induction ops as [|o r IH]; intros s Hq Ha; cbn [run_all]; [tauto|].
  cbn [forallb] in Ha. apply andb_true_iff in Ha. destruct Ha as [Ho Hr].
  destruct (readonly_step s o Hq Ho) as [Hv [Hq' _]]. destruct (IH _ Hq' Hr) as [Hv' Hq'']. split; [congruence|exact Hq''].
Qed.
Theorem readonly_refused ops : forall s, quiet s -> forallb app_op ops = true ->
  forall i o, nth_error ops i = Some o -> mutating o = true -> nth_error (outcomes s ops) i <> Some Done.
Proof.
  induction ops as [|o r IH]; intros s Hq Ha i o' Hn Hm; [destruct i; discriminate|].
  cbn [forallb] in Ha. apply andb_true_iff in Ha. destruct Ha as [Ho Hr].
  destruct (readonly_step s o Hq Ho) as [_ [Hq' Hd]]. destruct i as [|i]; cbn [nth_error outcomes] in *.
  - inversion Hn; subst. intros E. inversion E as [E']. exact (Hd Hm E').
  - eapply IH; eassumption.
Qed.

(* a commit step that begins after write authority is lost publishes nothing: whatever the state *)
Lemma late_commit_refused s o : writeable s = false ->
  match o with OCommitJournal _ | OCommitWal _ _ | ODrop | OImport _ _ _ => True | _ => False end ->
  fst (step s o) <> Done /\ txid (snd (step s o)) = txid s /\ chk (snd (step s o)) = chk s /\ ltxdir (snd (step s o)) = ltxdir s.
Proof.
  intros Hw. destruct o as [p q|n|c| | | |fr c| | | |b|f|pages commit ok|ages backup hwm|c2|pj qj|pz qz]; intros Hm; try contradiction; clear Hm;
    try (rewrite gated_refused by (exact Hw || reflexivity); cbn [fst snd]; repeat split; discriminate || reflexivity); cbn [step].
  - unfold op_commit_wal. destruct (truncated_pages _ _ _ _) as [new|]; [|cbn; repeat split; discriminate || reflexivity].
    pose proof (frame_checksum s c new) as Hs. destruct (checksum s c new) as [[post|] s1]; cbn [snd] in Hs.
    + rewrite (fr_writeable _ _ Hs), Hw. cbn. repeat split; try discriminate; apply Hs.
    + cbn. repeat split; try discriminate; apply Hs.
Qed.

Lemma writes_get_eacces h pr ss hw : In h [HWriteDB; HWriteJournal; HWriteWAL] -> answer_of h false pr ss hw = AAccess.
Proof. cbn. intros [<-|[<-|[<-|[]]]]; reflexivity. Qed.
Lemma nothing_that_changes_succeeds h ss hw : changes_database h = true -> answer_of h false false ss hw <> AOk.
Proof. destruct h, hw; cbn; try discriminate; intros _; discriminate. Qed.

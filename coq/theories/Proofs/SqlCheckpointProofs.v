(* C04 along histories, WAL mode with every kind of checkpoint: besides LiteFS's own, a checkpoint run by SQLite - pages
   of the log written into the database file through LiteFS - and the restart of the log that follows a complete one. *)
From Coq Require Import NArith List Bool.
Require Import LF.Model.PageDB LF.Proofs.XorLib LF.Proofs.ChecksumProofs LF.Proofs.CaptureProofs
  LF.Proofs.HistoryProofs LF.Proofs.WalHistoryProofs LF.Proofs.WalCheckpointProofs.
Import ListNotations.
Local Open Scope N_scope.

Lemma alookup_filter_key {A} (g : N -> bool) p : forall (l : list (N * A)),
  alookup p (filter (fun kv => g (fst kv)) l) = if g p then alookup p l else None.
Proof.
  induction l as [|[k v] l IH]; cbn [filter alookup fst]; [destruct (g p); reflexivity|].
  destruct (g k) eqn:Eg; cbn [alookup]; destruct (N.eqb_spec p k) as [->|Hne].
  - rewrite Eg. reflexivity.
  - exact IH.
  - rewrite IH, Eg. reflexivity.
  - exact IH.
Qed.

(* one page of the log copied into the database file (a checkpoint that goes only part of the way), whatever version
   SQLite copies (readers may hold the checkpoint back at an older one): the page keeps answering from its WAL checksums,
   the cache slot and the file move together *)
Lemma backfill_any_step s v p q s' : WL s v -> WK s v -> 1 <= p <= pageN s -> alookup p (wpages s) <> None ->
  op_write_page s p q = (Done, s') -> WL s' v /\ WK s' v /\ lockpg s' = lockpg s.
Proof.
  intros HW HK Hp Hin H. destruct HW as [Ww Wm Wl Wc Wz Wv Wt Wk].
  rewrite (op_write_page_wal s p q Ww Wm) in H. injection H as <-.
  destruct (write_db_page_cache s p q (proj1 Hp) Wl Wc Wz) as [A1 [A2 [A9 A10]]]. cbn zeta in *.
  (* write_db_page moves the cache slot and the file slot of p and nothing else: a field that reads neither is the old one *)
  split; [|split; [|reflexivity]].
  - constructor; try assumption.
    + (* a page answers from its last WAL entry if it has one, else from its cache slot: the page written is in the log
         and has one, and no other slot moved *)
      intros x Hx Hnl. change (x <> lockpg s) in Hnl. change (1 <= x <= pageN s) in Hx.
      rewrite <- (Wv x Hx Hnl), !eff_cases by (assumption || apply Hx).
      change (wal_chk (write_db_page s p q)) with (wal_chk s). rewrite A9 by apply Hx.
      destruct (N.eqb_spec x p) as [->|Hne]; [|reflexivity].
      destruct (alookup p (wpages s)) as [qp|] eqn:Eq; [|contradiction Hin; reflexivity].
      destruct (k_in s v HK p qp Eq (proj2 Hp) Hnl) as [l [c [El Ec]]]. rewrite El, Ec. reflexivity.
    + intros x Hx. change (pageN s < x) in Hx. rewrite A9 by exact (lt_ge1 _ _ Hx).
      destruct (N.eqb_spec x p) as [->|_]; [apply N.lt_nge in Hx; destruct (Hx (proj2 Hp))|]. apply Wt. assumption.
  - destruct HK as [Kscan Klast Khash Kkeys Ktruth Kempty Kpos Knodup Kin]. constructor; try assumption.
    intros x Hx Hnl. rewrite A9, A10 by assumption. destruct (N.eqb_spec x p) as [->|Hne].
    + left. destruct (N.eqb_spec p (lockpg s)); [contradiction|reflexivity].
    + exact (Ktruth x Hx Hnl).
Qed.

Lemma backfill_step s v p q s' : WL s v -> WK s v -> 1 <= p <= pageN s -> alookup p (wpages s) = Some q ->
  op_write_page s p q = (Done, s') -> WL s' v /\ WK s' v /\ lockpg s' = lockpg s.
Proof. intros HW HK Hp Hq. apply (backfill_any_step s v p q s' HW HK Hp). rewrite Hq. discriminate. Qed.

Definition backfill_list (s : st) : list (N * pg) :=
  filter (fun kv => (fun k => (1 <=? k) && (k <=? pageN s)) (fst kv)) (wpages s).
(* a complete checkpoint and the restart of the log: SQLite copies the last committed version of every page of the log
   within the database size into the file, cuts the file to the database size, and with the next write transaction starts
   the log over - at which LiteFS forgets its WAL bookkeeping *)
Definition sql_ckpt_ops (s : st) : list op := wr_ops (backfill_list s) ++ [OTruncate (pageN s); OWalHeader].

Lemma run_wal_writes : forall l s, writeable s = true -> wal_mode s = true ->
  run_group s (wr_ops l) = (0, fold_left (fun a kv => write_db_page a (fst kv) (snd kv)) l s).
Proof.
  induction l as [|[p q] l IH]; intros s Hw Hm; cbn [wr_ops map run_group fold_left fst snd]; [reflexivity|].
  cbn [step]. unfold op_write_page. rewrite Hw, Hm. cbn [negb]. apply IH; [exact Hw|exact Hm].
Qed.

Lemma sql_ckpt_run s s' : writeable s = true -> wal_mode s = true -> run_group s (sql_ckpt_ops s) = (0, s') ->
  s' = with_wal (truncate_db (fold_left (fun a kv => write_db_page a (fst kv) (snd kv)) (backfill_list s) s) (pageN s)) [] [] [].
Proof.
  intros Hw Hm H. unfold sql_ckpt_ops in H. rewrite run_group_app, (run_wal_writes _ s Hw Hm) in H.
  cbn [run_group step] in H. unfold op_truncate in H.
  rewrite (fr_pageN _ _ (frame_fold_write (backfill_list s) s)), N.eqb_refl in H. cbn [negb ocode] in H.
  unfold op_wal_header in H. injection H as <-. reflexivity.
Qed.

Lemma sqlckpt_step s v s' : WL s v -> WK s v -> run_group s (sql_ckpt_ops s) = (0, s') ->
  WL s' v /\ WK s' v /\ lockpg s' = lockpg s /\ txid s' = txid s /\ pageN s' = pageN s /\ wal_file s' = [] /\
  (forall p, 1 <= p <= pageN s' -> p <> lockpg s' -> file_h s' p = v p).
Proof.
  intros HW HK H. rewrite (sql_ckpt_run s s' (w_w s v HW) (w_mode s v HW) H).
  destruct (flush_log s v (backfill_list s) HW HK) as [HW' [HK' [El [Et [En Hfile]]]]].
  - intros p q Hin. apply filter_In in Hin. apply (k_pos s v HK p q). tauto.
  - apply keys_filter. exact (k_nodup s v HK).
  - intros p Hp. unfold backfill_list. rewrite (alookup_filter_key (fun k => (1 <=? k) && (k <=? pageN s))).
    rewrite (proj2 (N.leb_le _ _) (proj1 Hp)), (proj2 (N.leb_le _ _) (proj2 Hp)). reflexivity.
  - cbn zeta in *. repeat (split; [assumption|]). split; [reflexivity|exact Hfile].
Qed.

Inductive wop2 :=
| W2Commit (fr : list (N * pg)) (c : N)
| W2Checkpoint                              (* LiteFS's own *)
| W2Backfill (p : N)                        (* SQLite copies the log's version of page p into the database file *)
| W2BackfillOld (p : N) (q : pg)            (* ... or an older version q of it (readers hold the checkpoint back) *)
| W2SqlRestart.                             (* SQLite copies everything, cuts the file, starts the log over *)
Definition wop2_ops (s : st) (o : wop2) : list op :=
  match o with
  | W2Commit fr c => [OCommitWal fr c]
  | W2Checkpoint => [OCheckpoint]
  | W2Backfill p => match alookup p (wpages s) with Some q => [OWrite p q] | None => [] end
  | W2BackfillOld p q => [OWrite p q]
  | W2SqlRestart => sql_ckpt_ops s
  end.
Definition wop2_view (lock : N) (o : wop2) (v : N -> N) : N -> N :=
  match o with W2Commit fr c => overlay lock fr c v | _ => v end.
Definition wf_wop2 (s : st) (o : wop2) : Prop :=
  match o with
  | W2Commit fr c => wf_wal2 s fr c
  | W2Backfill p => 1 <= p <= pageN s
  | W2BackfillOld p q => 1 <= p <= pageN s /\ alookup p (wpages s) <> None
  | _ => True
  end.
Fixpoint run_wops2 (s : st) (v : N -> N) (os : list wop2) : option (st * (N -> N)) :=
  match os with
  | [] => Some (s, v)
  | o :: r => match run_group s (wop2_ops s o) with (0, s') => run_wops2 s' (wop2_view (lockpg s) o v) r | _ => None end
  end.
Fixpoint wf_wops2 (s : st) (os : list wop2) : Prop :=
  match os with
  | [] => True
  | o :: r => wf_wop2 s o /\ forall s', run_group s (wop2_ops s o) = (0, s') -> wf_wops2 s' r
  end.

Lemma wop2_step s v o s' : WL s v -> WK s v -> wf_wop2 s o -> run_group s (wop2_ops s o) = (0, s') ->
  WL s' (wop2_view (lockpg s) o v) /\ WK s' (wop2_view (lockpg s) o v) /\ lockpg s' = lockpg s.
Proof.
  intros HW HK Hw E. destruct o as [fr c| |p|p q|]; cbn [wop2_ops wop2_view wf_wop2] in *.
  - apply run_group_one in E. exact (wop_step s v (WCommit fr c) s' HW HK Hw E).
  - apply run_group_one in E. exact (wop_step s v WCheckpoint s' HW HK I E).
  - destruct (alookup p (wpages s)) as [q|] eqn:El.
    + apply run_group_one in E. cbn [step] in E. apply (backfill_step s v p q s' HW HK Hw El E).
    + cbn [run_group] in E. inversion E; subst. auto.
  - apply run_group_one in E. cbn [step] in E. apply (backfill_any_step s v p q s' HW HK (proj1 Hw) (proj2 Hw) E).
  - destruct (sqlckpt_step s v s' HW HK E) as [A [Bq [C _]]]. auto.
Qed.

Theorem wal_full_history_invariant : forall os s v s' v',
  WL s v -> WK s v -> wf_wops2 s os -> run_wops2 s v os = Some (s', v') -> WL s' v' /\ WK s' v' /\ lockpg s' = lockpg s.
Proof.
  induction os as [|o r IH]; intros s v s' v' HW HK Hwf H; cbn [run_wops2 wf_wops2] in *.
  - inversion H; subst. auto.
  - destruct Hwf as [Hw Hrest]. destruct (run_group s (wop2_ops s o)) as [code s1] eqn:E. destruct code; [|discriminate].
    destruct (wop2_step s v o s1 HW HK Hw E) as [HW1 [HK1 El1]].
    destruct (IH s1 _ s' v' HW1 HK1 (Hrest s1 eq_refl) H) as [HW' [HK' El']]. split; [exact HW'|]. split; [exact HK'|congruence].
Qed.

Theorem wal_full_history_checksum lock hs zf acts c os s1 s2 s' v' :
  1 <= lock -> wf_hist (init lock) hs -> run_hsteps (init lock) hs = Some s1 ->
  wf_tx_any s1 zf acts -> run_group s1 (hops s1 (HTx zf acts c)) = (0, s2) -> wal_mode s2 = true ->
  wf_wops2 s2 os -> run_wops2 s2 (file_h s2) os = Some (s', v') ->
  chk s' = scratch (fun p => if p =? lock then 0 else v' p) (pageN s') /\
  (forall p, 1 <= p <= pageN s' -> p <> lock -> eff s' (pageN s') [] p = v' p) /\
  (wal_file s' = [] -> forall p, 1 <= p <= pageN s' -> p <> lock -> file_h s' p = v' p) /\ lockpg s' = lock.
Proof.
  intros Hl Hwf H1 Hsw H2 Hm Hww H3.
  destruct (switch_entry lock hs zf acts c s1 s2 Hl Hwf H1 Hsw H2 Hm) as [HW [HK [El2 _]]].
  destruct (wal_full_history_invariant os s2 (file_h s2) s' v' HW HK Hww H3) as [HW' [HK' El']].
  rewrite El2 in El'. rewrite <- El'. split; [|split; [|split; [|reflexivity]]]; apply (wal_answers s' v' HW' HK').
Qed.

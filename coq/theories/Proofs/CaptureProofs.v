(* C02 / C03: the transaction file produced by CommitJournal / CommitWAL is exactly the
   difference between the previous image and the image SQLite now sees. *)
From Coq Require Import NArith List Lia Bool Sorted Permutation.
Require Import LF.Model.PageDB LF.Proofs.XorLib LF.Proofs.ChecksumProofs.
Import ListNotations.
Local Open Scope N_scope.

Lemma insert_sorted_in x p l : In x (insert_sorted p l) <-> x = p \/ In x l.
Proof.
  induction l as [|y l IH]; cbn [insert_sorted In]; [intuition congruence|].
  destruct (N.eqb_spec p y) as [->|Hne]; [cbn [In]; intuition congruence|].
  destruct (p <? y); cbn [In]; [intuition congruence|]. rewrite IH. intuition congruence.
Qed.

Lemma insert_sorted_sorted p l : StronglySorted N.lt l -> StronglySorted N.lt (insert_sorted p l).
Proof.
  induction 1 as [|y l Hs IH Hall]; cbn [insert_sorted]; [repeat constructor|].
  destruct (N.eqb_spec p y) as [->|Hne]; [constructor; assumption|].
  destruct (N.ltb_spec p y) as [Hlt|Hge].
  - constructor; [constructor; assumption|]. constructor; [assumption|].
    eapply Forall_impl; [|exact Hall]. intros a Ha. lia.
  - constructor; [assumption|]. apply Forall_forall. intros x Hx. apply insert_sorted_in in Hx.
    destruct Hx as [->|Hx]; [lia|]. rewrite Forall_forall in Hall. apply Hall. assumption.
Qed.

Lemma filter_sorted (f : N -> bool) l : StronglySorted N.lt l -> StronglySorted N.lt (filter f l).
Proof.
  induction 1 as [|y l Hs IH Hall]; cbn [filter]; [constructor|].
  destruct (f y); [|assumption]. constructor; [assumption|].
  apply Forall_forall. intros x Hx. apply filter_In in Hx. rewrite Forall_forall in Hall. apply Hall. tauto.
Qed.

Definition KeysNoDup {A} (m : list (N * A)) : Prop := NoDup (map fst m).

Lemma aput_keys_nodup {A} k (v : A) m : KeysNoDup m -> KeysNoDup (aput k v m).
Proof.
  unfold KeysNoDup. induction m as [|[k' v'] m IH]; intros H; cbn [aput map fst].
  - constructor; [intros []|constructor].
  - inversion H as [|? ? Hnotin Hnd]; subst. destruct (N.eqb_spec k k') as [->|Hne]; cbn [map fst].
    + constructor; assumption.
    + constructor; [|apply IH; assumption].
      apply alookup_none_iff. rewrite alookup_aput, (proj2 (N.eqb_neq k' k)) by congruence.
      apply alookup_none_iff. assumption.
Qed.

Lemma in_alookup_nodup {A} p (q : A) m : KeysNoDup m -> In (p, q) m -> alookup p m = Some q.
Proof.
  unfold KeysNoDup. induction m as [|[k v] m IH]; intros Hn Hin; [destruct Hin|]. cbn [map fst] in Hn.
  inversion Hn as [|? ? Hnotin Hnd]; subst. cbn [alookup]. destruct Hin as [E|Hin].
  - inversion E; subst. rewrite N.eqb_refl. reflexivity.
  - destruct (N.eqb_spec p k) as [->|Hne]; [|apply IH; assumption].
    exfalso. apply Hnotin. apply in_map_iff. exists (k, q). auto.
Qed.

Lemma sorted_nodup l : StronglySorted N.lt l -> NoDup l.
Proof.
  induction 1 as [|a l _ IH Hall]; constructor; [|exact IH].
  intros Hin. rewrite Forall_forall in Hall. specialize (Hall a Hin). lia.
Qed.

Lemma set_file_same : forall i l v, nth_error (set_file l i v) i = Some v.
Proof. induction i as [|i IH]; intros l v; destruct l; cbn; auto. Qed.
Lemma set_file_other l : forall i j v, (i <= length l)%nat -> i <> j -> nth_error (set_file l i v) j = nth_error l j.
Proof.
  induction l as [|x l IH]; intros i j v Hi Hij.
  - cbn in Hi. assert (i = 0%nat) as -> by lia. destruct j; [congruence|]. cbn. destruct j; reflexivity.
  - destruct i, j; cbn; try congruence; try reflexivity. apply IH; [cbn in Hi; lia|congruence].
Qed.

Lemma file_pg_set_page_chk s p v x : file_pg (set_page_chk s p v) x = file_pg s x.
Proof. reflexivity. Qed.

(* a write that does not leave a hole: at most one page past the end of the file *)
Definition contiguous (s : st) (p : N) : Prop := 1 <= p /\ p <= lenN (dbfile s) + 1.

Lemma write_page_file s p q x : contiguous s p -> 1 <= x ->
  file_pg (write_db_page s p q) x = if x =? p then Some q else file_pg s x.
Proof.
  intros [H1 H2] Hx. unfold write_db_page. rewrite file_pg_set_page_chk. unfold file_pg, with_file. cbn [dbfile].
  unfold lenN in H2. destruct (N.eqb_spec x p) as [->|Hne].
  - apply set_file_same.
  - apply set_file_other; lia.
Qed.

(* everything that differs from the image at the last commit is in the dirty set *)
Definition Unchanged (s0 s : st) : Prop := forall p, 1 <= p -> ~ In p (dirty s) -> file_pg s p = file_pg s0 p.

Lemma unchanged_write s0 s p q : contiguous s p -> Unchanged s0 s ->
  Unchanged s0 (write_db_page (with_dirty s (insert_sorted p (dirty s))) p q).
Proof.
  intros Hc HU x Hx Hnd. change (~ In x (insert_sorted p (dirty s))) in Hnd. rewrite insert_sorted_in in Hnd.
  rewrite write_page_file by assumption.
  destruct (N.eqb_spec x p) as [->|Hne]; [tauto|]. apply HU; tauto.
Qed.

Lemma write_page_j_unchanged s0 s p q s' :
  contiguous s p -> Unchanged s0 s -> op_write_page_j s p q = (Done, s') ->
  Unchanged s0 s' /\ wal_mode s' = wal_mode s /\ dirty s' = insert_sorted p (dirty s) /\
  txid s' = txid s /\ chk s' = chk s /\ ltxdir s' = ltxdir s /\ lockpg s' = lockpg s.
Proof.
  intros Hc HU H. unfold op_write_page_j in H. destruct (writeable s); cbn [negb] in H; [|discriminate].
  injection H as <-. split; [apply unchanged_write; assumption|]. repeat split.
Qed.

Lemma write_page_unchanged s0 s p q s' :
  wal_mode s = false -> contiguous s p -> Unchanged s0 s -> op_write_page s p q = (Done, s') ->
  Unchanged s0 s' /\ wal_mode s' = false /\ dirty s' = insert_sorted p (dirty s) /\
  txid s' = txid s /\ chk s' = chk s /\ ltxdir s' = ltxdir s /\ lockpg s' = lockpg s.
Proof.
  intros Hm Hc HU H. unfold op_write_page in H. rewrite Hm in H.
  destruct (write_page_j_unchanged s0 s p q s' Hc HU H) as [A [B C]]. rewrite Hm in B. auto.
Qed.

Lemma commit_journal_file s commit s' :
  op_commit_journal s commit = (Done, s') ->
  exists f, ltxdir s' = ltxdir s ++ [f] /\
    l_min f = txid s + 1 /\ l_max f = txid s + 1 /\ l_pre f = chk s /\ l_post f = chk s' /\ l_commit f = commit /\
    map fst (l_pages f) = filter (fun p => negb (p =? lockpg s)) (journal_pgnos s commit) /\
    (forall p q, In (p, q) (l_pages f) -> file_pg s p = Some q) /\
    dbfile s' = dbfile s.
Proof.
  intros H. apply op_commit_journal_inv in H. destruct H as (_ & pages & sj & post & s2 & Ej & Eck & ->).
  destruct (journal_pages_some _ _ _ _ _ Ej) as [_ [_ [_ [_ [A1 A2]]]]].
  destruct (checksum_result _ _ _ _ _ Eck) as [_ [D _]].
  rewrite dbfile_clear_after_commit, (dbfile_journal_pages _ _ _ _ _ Ej) in D.
  exists (new_ltx s commit post pages). cbn. repeat split; assumption.
Qed.

Lemma commit_journal_pos s commit s' :
  op_commit_journal s commit = (Done, s') -> txid s' = txid s + 1 /\ pageN s' = commit /\ dirty s' = [].
Proof. intros H. apply op_commit_journal_inv in H. destruct H as (_ & ? & ? & ? & ? & _ & _ & ->). auto. Qed.

Lemma step_commit_cases s c s' : step s (OCommitJournal c) = (Done, s') ->
  (pageN s = 0 /\ dbfile s = [] /\ s' = with_dirty s []) \/ op_commit_journal s c = (Done, s').
Proof.
  cbn [step]. destruct (writeable s && (pageN s =? 0) && _) eqn:E; [|auto].
  apply andb_true_iff in E. destruct E as [E Ef]. apply andb_true_iff, proj2, N.eqb_eq in E.
  unfold op_invalidate_journal. intros H. injection H as <-. left. destruct (dbfile s); [auto|discriminate].
Qed.

Lemma op_truncate_inv s n s' : op_truncate s n = (Done, s') -> n = pageN s /\ s' = truncate_db s n.
Proof.
  unfold op_truncate. destruct (N.eqb_spec n (pageN s)); cbn [negb]; [|discriminate].
  intros H. injection H as <-. auto.
Qed.

Lemma op_write_page_wal s p q : writeable s = true -> wal_mode s = true -> op_write_page s p q = (Done, write_db_page s p q).
Proof. intros Hw Hm. unfold op_write_page. rewrite Hw, Hm. reflexivity. Qed.

Lemma seqN_sorted : forall n a, StronglySorted N.lt (seqN a n).
Proof.
  induction n as [|n IH]; intros a; cbn [seqN]; constructor; [apply IH|].
  apply Forall_forall. intros x Hx. apply seqN_in in Hx. lia.
Qed.
Lemma sorted_app (l1 l2 : list N) : StronglySorted N.lt l1 -> StronglySorted N.lt l2 ->
  (forall x y, In x l1 -> In y l2 -> x < y) -> StronglySorted N.lt (l1 ++ l2).
Proof.
  induction l1 as [|a l1 IH]; intros H1 H2 Hlt; cbn [app]; [assumption|].
  inversion H1 as [|? ? H1' Hall]; subst. constructor.
  - apply IH; [assumption|assumption|]. intros x y Hx Hy. apply Hlt; [right|]; assumption.
  - apply Forall_forall. intros x Hx. apply in_app_or in Hx. destruct Hx as [Hx|Hx].
    + rewrite Forall_forall in Hall. apply Hall. assumption.
    + apply Hlt; [left; reflexivity|assumption].
Qed.
Lemma journal_pgnos_in s commit p :
  In p (journal_pgnos s commit) <-> (In p (dirty s) /\ p <= commit /\ p <= pageN s) \/ (pageN s < p /\ p <= commit).
Proof.
  unfold journal_pgnos. rewrite in_app_iff, filter_In, upfrom_seqN, seqN_in, andb_true_iff, !N.leb_le. intuition lia.
Qed.
Lemma journal_pgnos_sorted s commit : StronglySorted N.lt (dirty s) -> StronglySorted N.lt (journal_pgnos s commit).
Proof.
  intros Hs. unfold journal_pgnos. apply sorted_app; [apply filter_sorted; assumption|rewrite upfrom_seqN; apply seqN_sorted|].
  intros x y Hx Hy. rewrite filter_In, andb_true_iff, !N.leb_le in Hx. rewrite upfrom_seqN, seqN_in in Hy. lia.
Qed.

(* C02: applying the new file's pages to the image at the previous commit gives the file SQLite now sees *)
Theorem journal_commit_exact s0 s commit s' :
  Unchanged s0 s -> StronglySorted N.lt (dirty s) ->
  op_commit_journal s commit = (Done, s') ->
  exists f, ltxdir s' = ltxdir s ++ [f] /\
    l_min f = txid s + 1 /\ l_max f = txid s + 1 /\ l_pre f = chk s /\ l_post f = chk s' /\ l_commit f = commit /\
    txid s' = txid s + 1 /\ pageN s' = commit /\
    StronglySorted N.lt (map fst (l_pages f)) /\
    (forall p, In p (map fst (l_pages f)) -> p <= commit /\ p <> lockpg s) /\
    (forall p, 1 <= p <= commit -> p <> lockpg s ->
       file_pg s' p = match alookup p (l_pages f) with Some q => Some q | None => file_pg s0 p end).
Proof.
  intros HU Hsorted H. destruct (commit_journal_file s commit s' H) as [f [E1 [E2 [E3 [E4 [E5 [E6 [E7 [E8 E9]]]]]]]]].
  destruct (commit_journal_pos s commit s' H) as [T1 [T2 _]].
  assert (Hk : forall p, In p (map fst (l_pages f)) <-> In p (journal_pgnos s commit) /\ p <> lockpg s).
  { intros p. rewrite E7, filter_In, negb_true_iff, N.eqb_neq. reflexivity. }
  exists f. repeat (split; [assumption|]).
  split; [rewrite E7; apply filter_sorted, journal_pgnos_sorted; assumption|]. split.
  - intros p Hp. apply Hk in Hp. destruct Hp as [Hp Hnl]. apply journal_pgnos_in in Hp. split; [lia|assumption].
  - intros p Hp Hnl. unfold file_pg at 1. rewrite E9. fold (file_pg s p).
    destruct (alookup p (l_pages f)) as [q|] eqn:Ea; [exact (E8 p q (alookup_in p q _ Ea))|].
    (* a page the file leaves out is not among the journal's pages, so it is not dirty *)
    apply alookup_none_iff in Ea. rewrite Hk in Ea. apply HU; [lia|]. intros Hd. apply Ea. split; [|assumption].
    apply journal_pgnos_in. destruct (N.le_gt_cases p (pageN s)); [left; repeat split; [assumption|lia|assumption]|right; lia].
Qed.

Lemma commit_journal_covers_growth s commit s' :
  op_commit_journal s commit = (Done, s') ->
  exists f, ltxdir s' = ltxdir s ++ [f] /\
    forall p, pageN s < p <= commit -> p <> lockpg s -> exists q, In (p, q) (l_pages f) /\ file_pg s p = Some q.
Proof.
  intros H. destruct (commit_journal_file s commit s' H) as [f [E1 [_ [_ [_ [_ [_ [E7 [E8 _]]]]]]]]].
  exists f. split; [assumption|]. intros p Hp Hnl.
  assert (In p (map fst (l_pages f))) as Hin.
  { rewrite E7. apply filter_In. split; [apply journal_pgnos_in; right; lia|]. apply negb_true_iff, N.eqb_neq. assumption. }
  apply in_map_iff in Hin. destruct Hin as [[p' q] [Ep Hin]]. cbn in Ep. subst p'.
  exists q. split; [assumption|]. apply E8. assumption.
Qed.

(* the transaction that would have created the database, rolled back after it had written pages (SQLite has cut the
   file back to nothing): finalising its journal publishes nothing *)
Lemma rolled_back_creation s c : writeable s = true -> pageN s = 0 -> dbfile s = [] ->
  step s (OCommitJournal c) = (Done, with_dirty s []).
Proof. intros Hw Hp Hf. cbn [step]. rewrite Hw, Hp, Hf. reflexivity. Qed.

Lemma truncate_spec s n s' o : op_truncate s n = (o, s') ->
  (o = Done -> n = pageN s /\ dbfile s' = firstn (N.to_nat n) (dbfile s)) /\
  (o <> Done -> s' = s) /\ txid s' = txid s /\ chk s' = chk s /\ ltxdir s' = ltxdir s.
Proof.
  unfold op_truncate. destruct (N.eqb_spec n (pageN s)) as [->|Hne]; cbn [negb]; intros H; injection H as <- <-.
  - destruct (frame_truncate_db s (pageN s)). split; [intros _; split; [reflexivity|]|split; [congruence|auto]].
    unfold truncate_db, reset_after. rewrite dbfile_clear_from. reflexivity.
  - split; [congruence|]. auto.
Qed.

(* the page content of the last frame of page p in write order *)
Definition last_frame (p : N) (frames : list (N * pg)) : option pg :=
  fold_left (fun o kv => if p =? fst kv then Some (snd kv) else o) frames None.

Lemma last_frame_fold p : forall (r : list (N * pg)) o,
  fold_left (fun o kv => if p =? fst kv then Some (snd kv) else o) r o =
  match last_frame p r with Some q => Some q | None => o end.
Proof.
  unfold last_frame. induction r as [|[k v] r IH]; intros o; cbn [fold_left fst snd]; [reflexivity|].
  rewrite (IH (if p =? k then Some v else o)), (IH (if p =? k then Some v else None)).
  destruct (fold_left _ r None); [reflexivity|]. destruct (p =? k); reflexivity.
Qed.
Lemma last_frame_cons p k v r : last_frame p ((k, v) :: r) =
  match last_frame p r with Some q => Some q | None => if p =? k then Some v else None end.
Proof. unfold last_frame at 1. cbn [fold_left fst snd]. apply last_frame_fold. Qed.
Lemma last_frame_some p q : forall frames, In (p, q) frames -> last_frame p frames <> None.
Proof.
  induction frames as [|[k v] r IH]; intros Hin; [destruct Hin|]. rewrite last_frame_cons.
  destruct Hin as [E|Hin].
  - inversion E; subst. destruct (last_frame p r); [discriminate|]. rewrite N.eqb_refl. discriminate.
  - specialize (IH Hin). destruct (last_frame p r); [discriminate|contradiction].
Qed.
Lemma last_frame_in p q : forall frames, last_frame p frames = Some q -> In (p, q) frames.
Proof.
  induction frames as [|[k v] r IH]; intros H; [discriminate|]. rewrite last_frame_cons in H.
  destruct (last_frame p r) as [q'|].
  - right. apply IH. congruence.
  - destruct (N.eqb_spec p k) as [->|_]; [|discriminate]. inversion H; subst. left. reflexivity.
Qed.

Lemma alookup_last_versions p : forall frames acc,
  alookup p (last_versions frames acc) = match last_frame p frames with Some q => Some q | None => alookup p acc end.
Proof.
  induction frames as [|[k v] r IH]; intros acc; cbn [last_versions]; [reflexivity|].
  rewrite IH, last_frame_cons, alookup_aput. destruct (last_frame p r); [reflexivity|]. destruct (p =? k); reflexivity.
Qed.
Lemma last_versions_keys : forall frames acc, KeysNoDup acc -> KeysNoDup (last_versions frames acc).
Proof.
  induction frames as [|[k v] r IH]; intros acc H; cbn [last_versions]; [assumption|].
  apply IH, aput_keys_nodup. assumption.
Qed.
Lemma in_last_versions p q frames : In (p, q) (last_versions frames []) <-> last_frame p frames = Some q.
Proof.
  split.
  - intros Hin. apply in_alookup_nodup in Hin; [|apply last_versions_keys; constructor].
    rewrite alookup_last_versions in Hin. cbn [alookup] in Hin. destruct (last_frame p frames); congruence.
  - intros Hl. apply alookup_in. rewrite alookup_last_versions, Hl. reflexivity.
Qed.
Lemma last_frame_nodup p (m : list (N * pg)) : KeysNoDup m -> last_frame p m = alookup p m.
Proof.
  induction m as [|[k v] m IH]; intros Hn; [reflexivity|]. inversion Hn as [|? ? Hnotin Hnd]; subst.
  rewrite last_frame_cons, (IH Hnd). cbn [alookup]. destruct (N.eqb_spec p k) as [->|_].
  - rewrite (proj2 (alookup_none_iff k m) Hnotin). reflexivity.
  - destruct (alookup p m); reflexivity.
Qed.
Lemma last_frame_last_versions p frames : last_frame p (last_versions frames []) = last_frame p frames.
Proof.
  rewrite last_frame_nodup by (apply last_versions_keys; constructor). rewrite alookup_last_versions.
  destruct (last_frame p frames); reflexivity.
Qed.
Lemma merge_latest_last_versions : forall tx wl, merge_latest tx wl = last_versions tx wl.
Proof. induction tx as [|[p q] r IH]; intros wl; cbn [merge_latest last_versions]; [reflexivity|apply IH]. Qed.

Lemma sort_pages_permutation : forall l acc, Permutation (sort_pages l acc) (l ++ acc).
Proof.
  induction l as [|[p q] r IH]; intros acc; cbn [sort_pages]; [reflexivity|].
  rewrite IH.
  assert (forall a, Permutation ((fix ins (a : list (N * pg)) : list (N * pg) :=
             match a with [] => [(p, q)] | (p', q') :: a' => if p <? p' then (p, q) :: a else (p', q') :: ins a' end) a)
            ((p, q) :: a)) as G.
  { induction a as [|[p' q'] a IHa]; [reflexivity|]. destruct (p <? p'); [reflexivity|]. rewrite IHa. apply perm_swap. }
  rewrite G. symmetry. apply Permutation_middle.
Qed.

Lemma sort_pages_in x l acc : In x (sort_pages l acc) <-> In x l \/ In x acc.
Proof.
  rewrite <- in_app_iff. split; apply Permutation_in; [|symmetry]; apply sort_pages_permutation.
Qed.

Lemma tx_pages_in s frames commit p q :
  In (p, q) (tx_pages s frames commit) <-> (p <> lockpg s /\ p <= commit /\ last_frame p frames = Some q).
Proof.
  unfold tx_pages. rewrite filter_In, sort_pages_in, in_last_versions. cbn [fst In].
  rewrite andb_true_iff, negb_true_iff, N.eqb_neq, N.leb_le. tauto.
Qed.

Lemma commit_wal_file s frames commit s' :
  op_commit_wal s frames commit = (Done, s') ->
  exists f, ltxdir s' = ltxdir s ++ [f] /\
    l_min f = txid s + 1 /\ l_max f = txid s + 1 /\ l_pre f = chk s /\ l_post f = chk s' /\ l_commit f = commit /\
    l_pages f = tx_pages s frames commit /\ txid s' = txid s + 1 /\ pageN s' = commit /\ dbfile s' = dbfile s.
Proof.
  intros H. apply op_commit_wal_inv in H. destruct H as (new & post & s1 & _ & Eck & _ & ->).
  exists (new_ltx s commit post (tx_pages s frames commit)). repeat split. apply (checksum_result _ _ _ _ _ Eck).
Qed.

(* C03: the new file contains exactly the last frame of every page the transaction wrote
   (the lock page skipped); nothing else *)
Theorem wal_commit_exact s frames commit s' :
  op_commit_wal s frames commit = (Done, s') ->
  exists f, ltxdir s' = ltxdir s ++ [f] /\
    l_min f = txid s + 1 /\ l_max f = txid s + 1 /\ l_pre f = chk s /\ l_post f = chk s' /\ l_commit f = commit /\
    txid s' = txid s + 1 /\ pageN s' = commit /\ dbfile s' = dbfile s /\
    (forall p q, In (p, q) (l_pages f) <-> (p <> lockpg s /\ p <= commit /\ last_frame p frames = Some q)).
Proof.
  intros H. destruct (commit_wal_file s frames commit s' H) as [f [E1 [E2 [E3 [E4 [E5 [E6 [E7 [E8 [E9 E10]]]]]]]]]].
  exists f. repeat (split; [assumption|]). intros p q. rewrite E7. apply tx_pages_in.
Qed.

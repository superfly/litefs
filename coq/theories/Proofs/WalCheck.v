(* For the concrete histories of the non-vacuity examples: each X_b is the boolean form of the side condition X of a
   rollback-journal or WAL-mode step, with X_b_sound : X_b .. = true -> X ..; each check_ function runs a history and
   decides the side conditions on the way, so that an example is one evaluation (the _by_check lemmas). *)
From Coq Require Import NArith List Lia ZifyBool Bool.
Require Import LF.Model.PageDB LF.Proofs.XorLib LF.Proofs.HistoryProofs LF.Proofs.WalHistoryProofs
  LF.Proofs.WalCheckpointProofs LF.Proofs.SqlCheckpointProofs.
Import ListNotations.
Local Open Scope N_scope.

Definition some_b {A} (o : option A) : bool := match o with Some _ => true | None => false end.
Lemma some_b_sound {A} (o : option A) : some_b o = true -> o <> None.
Proof. destruct o; [discriminate|discriminate]. Qed.

Definition nonempty_b {A} (l : list A) : bool := match l with [] => false | _ => true end.
Lemma nonempty_b_sound {A} (l : list A) : nonempty_b l = true -> l <> [].
Proof. destruct l; discriminate. Qed.

Fixpoint nodupb (l : list N) : bool :=
  match l with [] => true | x :: r => negb (existsb (N.eqb x) r) && nodupb r end.
Lemma nodupb_sound : forall l, nodupb l = true -> NoDup l.
Proof.
  induction l as [|x r IH]; cbn [nodupb]; [constructor|]. rewrite andb_true_iff, negb_true_iff. intros [Hx Hr].
  constructor; [|exact (IH Hr)]. intros Hin. assert (existsb (N.eqb x) r = true) as E; [|congruence].
  apply existsb_exists. exists x. split; [exact Hin|apply N.eqb_refl].
Qed.

(* the shape of the non-vacuity examples: the side conditions [wf] hold and the run ends in a result with the observation
   [Q], both read off the checked run [chk] *)
Lemma by_check {A} (wf : Prop) (chk run : option A) (Q : A -> Prop) :
  (forall r, chk = Some r -> wf /\ run = Some r) ->
  match chk with Some r => Q r | None => False end -> wf /\ match run with Some r => Q r | None => False end.
Proof. intros Hs. destruct chk as [r|]; [|contradiction]. destruct (Hs r eq_refl) as [A0 ->]. auto. Qed.

Definition act_ok_b (k : bool) (a : act) : bool :=
  match a with AWrite p q => (1 <=? p) && (negb k || negb (pg_wal q)) | _ => true end.
Lemma act_ok_b_sound k : forall acts, forallb (act_ok_b k) acts = true -> Forall (act_ok k) acts.
Proof.
  intros acts H. apply Forall_forall. intros a Hin. rewrite forallb_forall in H. specialize (H a Hin).
  destruct a as [p q| |c]; cbn [act_ok_b act_ok] in *; [|exact I|exact I].
  apply andb_true_iff in H. destruct H as [Hp Hq]. split; [lia|]. intros ->. cbn [negb orb] in Hq. apply negb_true_iff. exact Hq.
Qed.

Definition wf_step_b (s : st) (h : hstep) : bool :=
  match h with
  | HTx zf acts c => nodupb (map fst zf) && forallb (fun kv => (pageN s <? fst kv) && negb (pg_wal (snd kv))) zf &&
                     forallb (act_ok_b true) acts
  | HTrunc _ => true
  end.
Lemma wf_step_b_sound s h : wf_step_b s h = true -> wf_step s h.
Proof.
  destruct h as [zf acts c|n]; cbn [wf_step_b wf_step]; [|exact (fun _ => I)]. rewrite !andb_true_iff, forallb_forall.
  intros [[Hn Hz] Ha]. split; [exact (nodupb_sound _ Hn)|]. split; [|exact (act_ok_b_sound true acts Ha)].
  intros p q Hin. specialize (Hz (p, q) Hin). cbn [fst snd] in Hz. apply andb_true_iff in Hz. destruct Hz as [A B].
  split; [lia|apply negb_true_iff; exact B].
Qed.

Definition wf_tx_any_b (s : st) (zf : list (N * pg)) (acts : list act) : bool :=
  nodupb (map fst zf) && forallb (fun kv => pageN s <? fst kv) zf && forallb (act_ok_b false) acts.
Lemma wf_tx_any_b_sound s zf acts : wf_tx_any_b s zf acts = true -> wf_tx_any s zf acts.
Proof.
  unfold wf_tx_any_b, wf_tx_any. rewrite !andb_true_iff, forallb_forall. intros [[Hn Hz] Ha].
  split; [exact (nodupb_sound _ Hn)|]. split; [|exact (act_ok_b_sound false acts Ha)].
  intros p q Hin. specialize (Hz (p, q) Hin). cbn [fst] in Hz. lia.
Qed.

Fixpoint check_hsteps (s : st) (hs : list hstep) : option st :=
  match hs with
  | [] => Some s
  | h :: r => if wf_step_b s h then match run_group s (hops s h) with (0, s') => check_hsteps s' r | _ => None end else None
  end.
Lemma check_hsteps_sound : forall hs s r, check_hsteps s hs = Some r -> wf_hist s hs /\ run_hsteps s hs = Some r.
Proof.
  induction hs as [|h hs IH]; intros s r H; cbn [check_hsteps wf_hist run_hsteps] in *; [auto|].
  destruct (wf_step_b s h) eqn:Ew; [|discriminate]. destruct (run_group s (hops s h)) as [[|code] s1]; [|discriminate].
  destruct (IH s1 r H) as [A B]. split; [|exact B]. split; [exact (wf_step_b_sound s h Ew)|].
  intros s2 E. inversion E; subst s2. exact A.
Qed.

Lemma hsteps_by_check (Q : st -> Prop) s hs :
  match check_hsteps s hs with Some s' => Q s' | None => False end ->
  wf_hist s hs /\ match run_hsteps s hs with Some s' => Q s' | None => False end.
Proof. exact (by_check _ _ _ Q (check_hsteps_sound hs s)). Qed.
Lemma wf_hist_checked s hs : some_b (check_hsteps s hs) = true -> wf_hist s hs.
Proof. destruct (check_hsteps s hs) as [r|] eqn:E; [|discriminate]. intros _. exact (proj1 (check_hsteps_sound hs s r E)). Qed.

Definition wf_wal_b (s : st) (fr : list (N * pg)) (c : N) : bool :=
  forallb (fun p => (p =? lockpg s) || existsb (fun kv => fst kv =? p) fr) (seqN (pageN s + 1) (N.to_nat (c - pageN s))) &&
  forallb (fun kv => negb (fst kv =? 1) || pg_wal (snd kv)) fr.
Lemma wf_wal_b_sound s fr c : wf_wal_b s fr c = true -> wf_wal s fr c.
Proof.
  unfold wf_wal_b. rewrite andb_true_iff, !forallb_forall. intros [Hg H1]. split.
  - intros p Hp Hnl. specialize (Hg p). rewrite seqN_in in Hg. apply orb_true_iff in Hg; [|lia].
    destruct Hg as [E|E]; [apply N.eqb_eq in E; contradiction|].
    apply existsb_exists in E. destruct E as [[k q] [Hin E]]. apply N.eqb_eq in E. cbn [fst] in E. subst k. exists q. exact Hin.
  - intros q Hin. specialize (H1 (1, q) Hin). cbn [fst snd N.eqb negb orb] in H1. exact H1.
Qed.

Definition wf_wal2_b (s : st) (fr : list (N * pg)) (c : N) : bool :=
  wf_wal_b s fr c && nonempty_b fr && negb (c =? 0) && forallb (fun kv => 1 <=? fst kv) fr.
Lemma wf_wal2_b_sound s fr c : wf_wal2_b s fr c = true -> wf_wal2 s fr c.
Proof.
  unfold wf_wal2_b. rewrite !andb_true_iff, forallb_forall, negb_true_iff. intros [[[Hw Hne] Hc] Hpos].
  split; [exact (wf_wal_b_sound s fr c Hw)|]. split; [exact (nonempty_b_sound fr Hne)|]. split; [apply N.eqb_neq; exact Hc|].
  intros p q Hin. specialize (Hpos (p, q) Hin). cbn [fst] in Hpos. lia.
Qed.

Fixpoint check_wals (s : st) (v : N -> N) (ws : list wstep) : option (st * (N -> N)) :=
  match ws with
  | [] => Some (s, v)
  | (fr, c) :: r => if wf_wal_b s fr c
                    then match op_commit_wal s fr c with (Done, s') => check_wals s' (overlay (lockpg s) fr c v) r | _ => None end
                    else None
  end.
Lemma check_wals_sound : forall ws s v r, check_wals s v ws = Some r -> wf_wals s ws /\ run_wal s v ws = Some r.
Proof.
  induction ws as [|[fr c] ws IH]; intros s v r H; cbn [check_wals wf_wals run_wal] in *; [auto|].
  destruct (wf_wal_b s fr c) eqn:Ew; [|discriminate]. destruct (op_commit_wal s fr c) as [[] s1]; try discriminate.
  destruct (IH s1 _ r H) as [A B]. split; [|exact B]. split; [exact (wf_wal_b_sound s fr c Ew)|].
  intros s2 E. inversion E; subst s2. exact A.
Qed.
Lemma wals_by_check (Q : st -> (N -> N) -> Prop) s v ws :
  match check_wals s v ws with Some (s', v') => Q s' v' | None => False end ->
  wf_wals s ws /\ match run_wal s v ws with Some (s', v') => Q s' v' | None => False end.
Proof. exact (by_check _ _ _ (fun r => let '(s', v') := r in Q s' v') (check_wals_sound ws s v)). Qed.

Definition wf_wop_b (s : st) (o : wop) : bool := match o with WCommit fr c => wf_wal2_b s fr c | WCheckpoint => true end.
Lemma wf_wop_b_sound s o : wf_wop_b s o = true -> wf_wop s o.
Proof. destruct o as [fr c|]; [apply wf_wal2_b_sound|exact (fun _ => I)]. Qed.

Fixpoint check_wops (s : st) (v : N -> N) (os : list wop) : option (st * (N -> N)) :=
  match os with
  | [] => Some (s, v)
  | o :: r => if wf_wop_b s o
              then match wop_run s o with (Done, s') => check_wops s' (wop_view (lockpg s) o v) r | _ => None end
              else None
  end.
Lemma check_wops_sound : forall os s v r, check_wops s v os = Some r -> wf_wops s os /\ run_wops s v os = Some r.
Proof.
  induction os as [|o os IH]; intros s v r H; cbn [check_wops wf_wops run_wops] in *; [auto|].
  destruct (wf_wop_b s o) eqn:Ew; [|discriminate]. destruct (wop_run s o) as [[] s1]; try discriminate.
  destruct (IH s1 _ r H) as [A B]. split; [|exact B]. split; [exact (wf_wop_b_sound s o Ew)|].
  intros s2 E. inversion E; subst s2. exact A.
Qed.
Lemma wops_by_check (Q : st -> (N -> N) -> Prop) s v os :
  match check_wops s v os with Some (s', v') => Q s' v' | None => False end ->
  wf_wops s os /\ match run_wops s v os with Some (s', v') => Q s' v' | None => False end.
Proof. exact (by_check _ _ _ (fun r => let '(s', v') := r in Q s' v') (check_wops_sound os s v)). Qed.

Definition wf_wop2_b (s : st) (o : wop2) : bool :=
  match o with
  | W2Commit fr c => wf_wal2_b s fr c
  | W2Backfill p => (1 <=? p) && (p <=? pageN s)
  | W2BackfillOld p q => (1 <=? p) && (p <=? pageN s) && some_b (alookup p (wpages s))
  | _ => true
  end.
Lemma wf_wop2_b_sound s o : wf_wop2_b s o = true -> wf_wop2 s o.
Proof.
  destruct o as [fr c| |p|p q|]; cbn [wf_wop2_b wf_wop2]; try exact (fun _ => I).
  - apply wf_wal2_b_sound.
  - lia.
  - rewrite andb_true_iff. intros [H Hs]. split; [lia|exact (some_b_sound _ Hs)].
Qed.

Fixpoint check_wops2 (s : st) (v : N -> N) (os : list wop2) : option (st * (N -> N)) :=
  match os with
  | [] => Some (s, v)
  | o :: r => if wf_wop2_b s o
              then match run_group s (wop2_ops s o) with (0, s') => check_wops2 s' (wop2_view (lockpg s) o v) r | _ => None end
              else None
  end.
Lemma check_wops2_sound : forall os s v r, check_wops2 s v os = Some r -> wf_wops2 s os /\ run_wops2 s v os = Some r.
Proof.
  induction os as [|o os IH]; intros s v r H; cbn [check_wops2 wf_wops2 run_wops2] in *; [auto|].
  destruct (wf_wop2_b s o) eqn:Ew; [|discriminate]. destruct (run_group s (wop2_ops s o)) as [[|code] s1]; [|discriminate].
  destruct (IH s1 _ r H) as [A B]. split; [|exact B]. split; [exact (wf_wop2_b_sound s o Ew)|].
  intros s2 E. inversion E; subst s2. exact A.
Qed.
Lemma wops2_by_check (Q : st -> (N -> N) -> Prop) s v os :
  match check_wops2 s v os with Some (s', v') => Q s' v' | None => False end ->
  wf_wops2 s os /\ match run_wops2 s v os with Some (s', v') => Q s' v' | None => False end.
Proof. exact (by_check _ _ _ (fun r => let '(s', v') := r in Q s' v') (check_wops2_sound os s v)). Qed.
(* with a further side condition [P] on the state the run ends in, established through its checked form [C] *)
Lemma wops2_by_check_with (C : st -> bool) (P : st -> Prop) (Q : st -> (N -> N) -> Prop) s v os :
  (forall s', C s' = true -> P s') ->
  match check_wops2 s v os with Some (s', v') => C s' = true /\ Q s' v' | None => False end ->
  wf_wops2 s os /\ match run_wops2 s v os with Some (s', v') => P s' /\ Q s' v' | None => False end.
Proof.
  intros HC H. apply wops2_by_check. destruct (check_wops2 s v os) as [[s' v']|]; [|exact H].
  split; [exact (HC s' (proj1 H))|exact (proj2 H)].
Qed.
Arguments wops2_by_check_with C {P Q s v os}.
Lemma wf_wops2_checked s os : some_b (check_wops2 s (fun _ => 0) os) = true -> wf_wops2 s os.
Proof.
  destruct (check_wops2 s (fun _ => 0) os) as [r|] eqn:E; [|discriminate]. intros _. exact (proj1 (check_wops2_sound os s _ r E)).
Qed.

(* rollback-journal transactions, the one that switches to WAL mode, then [R] of the state in WAL mode, itself
   established through a checked form [R'] (the _by_check lemma of the language the history goes on in) *)
Lemma switch_by_check (R' R : st -> Prop) s hs zf acts c :
  (forall s2, R' s2 -> R s2) ->
  match check_hsteps s hs with
  | Some s1 =>
      match run_group s1 (hops s1 (HTx zf acts c)) with
      | (0, s2) => wf_tx_any_b s1 zf acts = true /\ wal_mode s2 = true /\ R' s2
      | _ => False
      end
  | None => False
  end ->
  exists s1 s2, wf_hist s hs /\ run_hsteps s hs = Some s1 /\
    wf_tx_any s1 zf acts /\ run_group s1 (hops s1 (HTx zf acts c)) = (0, s2) /\ wal_mode s2 = true /\ R s2.
Proof.
  intros HR. destruct (check_hsteps s hs) as [s1|] eqn:E1; [|contradiction]. destruct (check_hsteps_sound hs s s1 E1) as [A B].
  destruct (run_group s1 (hops s1 (HTx zf acts c))) as [[|code] s2] eqn:E2; [|contradiction]. intros [Hw [Hm HQ]].
  exists s1, s2. repeat (split; [assumption || reflexivity || exact (wf_tx_any_b_sound s1 zf acts Hw)|]). exact (HR s2 HQ).
Qed.
Arguments switch_by_check {R' R s hs zf acts c}.

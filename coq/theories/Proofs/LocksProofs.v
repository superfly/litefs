(* The lock table of one database.  C11: the internal write lock excludes, CKPT gating, byte ranges.  C12: a request
   over several locks is granted or refused as a whole, also while the other owners keep going.  Naming: [x_facts] says what
   x does; [x_frame] only that x is [by_owner]; [x_own] that a refused x leaves the requester's own guards as they were. *)
From Coq Require Import ZArith List Bool.
Require Import LF.Gen.LockScriptsGen.
Require Import LF.Base.RWBase LF.Gen.RWMutexGen LF.Gen.ConstsGen LF.Model.RWMutex LF.Proofs.RWMutexProofs LF.Model.Locks.
Import ListNotations.

Definition lk_eq_dec : forall a b : lk, {a = b} + {a <> b}.
Proof. decide equality. Defined.

Definition TInv (t : table) : Prop := forall l, Inv (t l).

Lemma tinit_inv : TInv tinit.
Proof. intros l. apply inv_init. Qed.

Lemma lk_eqb_eq a b : lk_eqb a b = true <-> a = b.
Proof. destruct a, b; cbn; split; congruence. Qed.
Lemma lk_eqb_refl a : lk_eqb a a = true.
Proof. apply lk_eqb_eq. reflexivity. Qed.
Lemma gstate_eqb_eq a b : gstate_eqb a b = true <-> a = b.
Proof. destruct a, b; cbn; split; congruence. Qed.
Lemma tset_same t l w : tset t l w l = w.
Proof. unfold tset. rewrite lk_eqb_refl. reflexivity. Qed.
Lemma tset_other t l w l' : l' <> l -> tset t l w l' = t l'.
Proof. unfold tset. intros H. destruct (lk_eqb l' l) eqn:E; [apply lk_eqb_eq in E; congruence|reflexivity]. Qed.

(* what an operation of owner g does to the table: the invariant stays, the other owners' guards stay *)
Definition by_owner (g : gid) (t t' : table) : Prop :=
  TInv t' /\ forall l h, h <> g -> gst (t' l) h = gst (t l) h.
Lemma by_owner_refl g t : TInv t -> by_owner g t t.
Proof. intros HT. split; [exact HT|reflexivity]. Qed.
Lemma by_owner_trans g t t1 t2 : by_owner g t t1 -> by_owner g t1 t2 -> by_owner g t t2.
Proof. intros [_ A] [HT B]. split; [exact HT|]. intros l h Hne. rewrite B, A by assumption. reflexivity. Qed.
Lemma tset_by_owner t l g w' : TInv t -> Inv w' -> (forall h, h <> g -> gst w' h = gst (t l) h) -> by_owner g t (tset t l w').
Proof.
  intros HT HW Hh. split.
  - intros l'. unfold tset. destruct (lk_eqb l' l); [exact HW|apply HT].
  - intros l' h Hne. unfold tset. destruct (lk_eqb l' l) eqn:E; [|reflexivity].
    apply lk_eqb_eq in E. subst l'. apply Hh, Hne.
Qed.

(* What an operation of owner [g] on lock [l] that asks for state [v] does: granted, the guard is in state [v] and the
   spec's condition [cond] held; refused, the table is as it was and the condition did not hold. *)
Record try_effect (g : gid) (l : lk) (v : gstate) (cond : Prop) (t : table) (b : bool) (t' : table) : Prop := {
  te_owner : by_owner g t t';
  te_others : forall l', l' <> l -> t' l' = t l';
  te_granted : b = true -> gst (t' l) g = v /\ cond;
  te_refused : b = false -> (forall l', t' l' = t l') /\ ~ cond
}.
Arguments te_owner {g l v cond t b t'}.
Arguments te_others {g l v cond t b t'}.
Arguments te_refused {g l v cond t b t'}.
Lemma tset_effect t l g v (cond : Prop) (b : bool) w' : TInv t -> Inv w' ->
  (if b then heq (gst w') (upd (gst (t l)) g v) else w' = t l) -> (b = true <-> cond) ->
  try_effect g l v cond t b (tset t l w').
Proof.
  intros HT I S HA. destruct b.
  - split; [|intros l' Hl; apply tset_other, Hl| |discriminate].
    + apply tset_by_owner; [exact HT|exact I|]. intros h Hne. rewrite S. apply upd_other, Hne.
    + intros _. rewrite tset_same, S. split; [apply upd_same|apply HA; reflexivity].
  - subst w'. split; [apply tset_by_owner; [exact HT|exact I|reflexivity]|intros l' Hl; apply tset_other, Hl|discriminate|].
    intros _. split; [|rewrite <- HA; discriminate].
    intros l'. destruct (lk_eq_dec l' l) as [->|Hl]; [apply tset_same|apply tset_other, Hl].
Qed.

Lemma trylock_facts t l g : TInv t ->
  exists b t', t_trylock t l g = Some (b, t') /\ try_effect g l Exclusive (others_unlocked (gst (t l)) g) t b t'.
Proof.
  intros HT. unfold t_trylock. destruct (tryLock_ok (t l) g (HT l)) as [w' [-> [I S]]]. exists (availX (t l) g), (tset t l w').
  split; [reflexivity|]. apply tset_effect; [exact HT|exact I|exact S|apply availX_iff, HT].
Qed.
Lemma tryrlock_facts t l g : TInv t ->
  exists b t', t_tryrlock t l g = Some (b, t') /\ try_effect g l Shared (others_not_excl (gst (t l)) g) t b t'.
Proof.
  intros HT. unfold t_tryrlock. destruct (tryRLock_ok (t l) g (HT l)) as [w' [-> [I S]]]. exists (availR (t l) g), (tset t l w').
  split; [reflexivity|]. apply tset_effect; [exact HT|exact I|exact S|apply availR_iff, HT].
Qed.
Lemma unlock_facts t l g : TInv t -> exists t', t_unlock t l g = Some t' /\ try_effect g l Unlocked True t true t'.
Proof.
  intros HT. unfold t_unlock. destruct (unlock_ok (t l) g (HT l)) as [w' [-> [I S]]]. exists (tset t l w').
  split; [reflexivity|]. apply tset_effect; [exact HT|exact I|exact S|tauto].
Qed.

(* The three operations are one: put [g]'s guard on [l] into state [v], unless the other owners' guards forbid it (a
   release is never refused).  The scripts' actions and the steps of a rollback are this operation. *)
Definition guard_op (v : gstate) (t : table) (l : lk) (g : gid) : option (bool * table) :=
  match v with
  | Exclusive => t_trylock t l g
  | Shared => t_tryrlock t l g
  | Unlocked => match t_unlock t l g with Some t' => Some (true, t') | None => None end
  end.
Definition allowed (v : gstate) (s : holder) (g : gid) : Prop :=
  match v with Exclusive => others_unlocked s g | Shared => others_not_excl s g | Unlocked => True end.
Lemma guard_op_facts v t l g : TInv t ->
  exists b t', guard_op v t l g = Some (b, t') /\ try_effect g l v (allowed v (gst (t l)) g) t b t'.
Proof.
  intros HT. destruct v; cbn [guard_op allowed]; [|apply tryrlock_facts, HT|apply trylock_facts, HT].
  destruct (unlock_facts t l g HT) as [t' [-> F]]. exists true, t'. split; [reflexivity|exact F].
Qed.

(* an attempt the others' guards forbid is refused and changes nothing: an exclusive one while another guard holds
   the lock in any mode, a shared one while another holds it exclusively *)
Lemma guard_op_blocked v t l h : TInv t -> ~ allowed v (gst (t l)) h ->
  exists t', guard_op v t l h = Some (false, t') /\ forall l', t' l' = t l'.
Proof.
  intros HT Hn. destruct (guard_op_facts v t l h HT) as [b [t' [E F]]]. destruct b.
  - exfalso. apply Hn, F. reflexivity.
  - exists t'. split; [exact E|apply F; reflexivity].
Qed.
Lemma trylock_blocked t l g h : TInv t -> gst (t l) g <> Unlocked -> h <> g ->
  exists t', t_trylock t l h = Some (false, t') /\ forall l', t' l' = t l'.
Proof. intros HT Hg Hne. apply (guard_op_blocked Exclusive t l h HT). intros Hu. apply Hg, Hu. congruence. Qed.
Lemma tryrlock_blocked t l g h : TInv t -> gst (t l) g = Exclusive -> h <> g ->
  exists t', t_tryrlock t l h = Some (false, t') /\ forall l', t' l' = t l'.
Proof. intros HT Hg Hne. apply (guard_op_blocked Shared t l h HT). intros Hu. apply (Hu g); congruence. Qed.
Theorem held_blocks_others t l g h :
  TInv t -> gst (t l) g = Exclusive -> h <> g ->
  (exists t', t_trylock t l h = Some (false, t') /\ forall l' k, gst (t' l') k = gst (t l') k) /\
  (exists t', t_tryrlock t l h = Some (false, t') /\ forall l' k, gst (t' l') k = gst (t l') k).
Proof.
  intros HT Hg Hne. split.
  - destruct (trylock_blocked t l g h HT) as [t' [E S]]; [congruence|exact Hne|].
    exists t'. split; [exact E|]. intros l' k. rewrite S. reflexivity.
  - destruct (tryrlock_blocked t l g h HT Hg Hne) as [t' [E S]].
    exists t'. split; [exact E|]. intros l' k. rewrite S. reflexivity.
Qed.

Definition act_lock (a : act) : lk := match a with AR l | AX l | AU l => l end.
Definition act_state (a : act) : gstate := match a with AR _ => Shared | AX _ => Exclusive | AU _ => Unlocked end.
(* the state in which the script leaves the guard on [l]: that of its last action on [l], if it has one *)
Fixpoint last_act (s : list act) (l : lk) : option gstate :=
  match s with
  | [] => None
  | a :: r => match last_act r l with
              | Some v => Some v
              | None => if lk_eqb (act_lock a) l then Some (act_state a) else None
              end
  end.

Lemma run_script_cons t g a r :
  run_script t g (a :: r) =
  match guard_op (act_state a) t (act_lock a) g with Some (true, t') => run_script t' g r | o => o end.
Proof.
  destruct a as [l|l|l]; cbn [run_script guard_op act_state act_lock].
  - destruct (t_tryrlock t l g) as [[[|] t']|]; reflexivity.
  - destruct (t_trylock t l g) as [[[|] t']|]; reflexivity.
  - destruct (t_unlock t l g); reflexivity.
Qed.
Lemma run_script_facts : forall s t g, TInv t ->
  exists b t', run_script t g s = Some (b, t') /\ by_owner g t t' /\
    (b = true -> forall l, gst (t' l) g = match last_act s l with Some v => v | None => gst (t l) g end).
Proof.
  induction s as [|a r IH]; intros t g HT.
  - exists true, t. split; [reflexivity|]. split; [apply by_owner_refl, HT|reflexivity].
  - rewrite run_script_cons. destruct (guard_op_facts (act_state a) t (act_lock a) g HT) as [b1 [t1 [-> F1]]].
    destruct b1; [|exists false, t1; split; [reflexivity|]; split; [apply F1|discriminate]].
    destruct (IH t1 g) as [b [t' [-> [F C]]]]; [apply F1|]. exists b, t'. split; [reflexivity|].
    split; [apply (by_owner_trans g t t1 t'); [apply F1|exact F]|].
    intros Hb l. rewrite (C Hb l). cbn [last_act]. destruct (last_act r l) as [v|]; [reflexivity|].
    destruct (lk_eqb (act_lock a) l) eqn:El.
    + apply lk_eqb_eq in El. subst l. apply F1. reflexivity.
    + rewrite (te_others F1 l); [reflexivity|]. intros Eq. subst l. rewrite lk_eqb_refl in El. discriminate.
Qed.

Lemma unlock_all_facts : forall ls t g, TInv t ->
  exists t', unlock_all t g ls = Some t' /\ by_owner g t t' /\
             (forall l, In l ls -> gst (t' l) g = Unlocked) /\ (forall l, ~ In l ls -> gst (t' l) g = gst (t l) g).
Proof.
  induction ls as [|l0 r IH]; intros t g HT; cbn [unlock_all].
  - exists t. split; [reflexivity|]. split; [apply by_owner_refl, HT|]. split; [intros l0 []|reflexivity].
  - destruct (unlock_facts t l0 g HT) as [t1 [-> F1]].
    destruct (IH t1 g) as [t2 [-> [F2 [Hin Hnin]]]]; [apply F1|]. exists t2. split; [reflexivity|].
    split; [exact (by_owner_trans _ _ _ _ (te_owner F1) F2)|]. split.
    + intros l [->|Hl]; [|apply Hin; assumption].
      destruct (in_dec lk_eq_dec l r) as [Hi|Hi]; [apply Hin; assumption|].
      rewrite Hnin by assumption. apply F1. reflexivity.
    + intros l Hn. cbn [In] in Hn. rewrite Hnin by tauto. rewrite (te_others F1 l); [reflexivity|]. intros Eq; subst l; tauto.
Qed.

Definition excl_held (t : table) (g : gid) (l : lk) : Prop :=
  gst (t l) g = Exclusive /\ forall h, h <> g -> gst (t l) h = Unlocked.

Lemma all_locks_complete l : In l all_locks.
Proof. destruct l; cbn; auto 13. Qed.

Lemma try_acquire_write_facts t g wal : TInv t ->
  exists b t', try_acquire_write t g wal = Some (b, t') /\ by_owner g t t' /\
  forall l, gst (t' l) g = if b then match last_act (write_script wal) l with Some v => v | None => gst (t l) g end
                           else Unlocked.
Proof.
  intros HT. unfold try_acquire_write.
  destruct (run_script_facts (write_script wal) t g HT) as [b1 [t1 [-> [F1 Hg]]]]. destruct b1.
  - exists true, t1. split; [reflexivity|]. split; [exact F1|exact (Hg eq_refl)].
  - destruct (unlock_all_facts all_locks t1 g (proj1 F1)) as [t2 [-> [F2 [Hin _]]]]. exists false, t2. split; [reflexivity|].
    split; [exact (by_owner_trans _ _ _ _ F1 F2)|]. intros l. apply Hin, all_locks_complete.
Qed.

Theorem internal_write_excludes t g wal t' :
  TInv t -> (forall l, gst (t l) g = Unlocked) ->
  try_acquire_write t g wal = Some (true, t') ->
  TInv t' /\ (forall l h, h <> g -> gst (t' l) h = gst (t l) h) /\
  (wal = false -> excl_held t' g LReserved /\ excl_held t' g LPending /\ excl_held t' g LShared) /\
  (wal = true -> excl_held t' g LWrite /\ excl_held t' g LCkpt /\ excl_held t' g LRecover /\
                 excl_held t' g LRead0 /\ excl_held t' g LRead1 /\ excl_held t' g LRead2 /\ excl_held t' g LRead3 /\ excl_held t' g LRead4 /\
                 gst (t' LShared) g = Shared /\ gst (t' LDMS) g = Shared).
Proof.
  intros HT _ H. destruct (try_acquire_write_facts t g wal HT) as [b [t1 [E [[HT' Hoth] Hg]]]].
  rewrite E in H. injection H as -> ->. split; [exact HT'|]. split; [exact Hoth|].
  assert (Hx : forall l, gst (t' l) g = Exclusive -> excl_held t' g l).
  { intros l Hl. split; [exact Hl|]. apply inv_excl_alone; [apply HT'|exact Hl]. }
  split; intros ->; repeat split; try (apply Hx); rewrite Hg; reflexivity.
Qed.

Theorem internal_write_all_or_nothing t g wal t' :
  TInv t -> try_acquire_write t g wal = Some (false, t') ->
  TInv t' /\ (forall l h, h <> g -> gst (t' l) h = gst (t l) h) /\ (forall l, gst (t' l) g = Unlocked).
Proof.
  intros HT H. destruct (try_acquire_write_facts t g wal HT) as [b [t1 [E [[HT' Hoth] Hg]]]].
  rewrite E in H. injection H as -> ->. auto.
Qed.

Theorem internal_write_total t g wal : TInv t -> exists b t', try_acquire_write t g wal = Some (b, t').
Proof. intros HT. destruct (try_acquire_write_facts t g wal HT) as [b [t' [E _]]]. eauto. Qed.

(* the order Unlocked <= Shared <= Exclusive.  Keeping, downgrading or releasing a guard is never refused: that is
   why a rollback puts back what its list says. *)
Definition gle (p c : gstate) : Prop := p = c \/ p = Unlocked \/ (p = Shared /\ c = Exclusive).
Lemma gle_allowed w g p : Inv w -> gle p (gst w g) -> p <> gst w g -> allowed p (gst w) g.
Proof.
  intros HI [E|[->|[-> Hx]]] Hne; [contradiction|exact I|].
  intros h Hh. rewrite (inv_excl_alone w HI g Hx h Hh). discriminate.
Qed.

Lemma restore_one_guard_op t g l p : restore_one t g l p =
  if gstate_eqb (gst (t l) g) p then Some t else match guard_op p t l g with Some (_, t') => Some t' | None => None end.
Proof. unfold restore_one. destruct p; cbn [guard_op]; [destruct (t_unlock t l g)|..]; reflexivity. Qed.
Lemma restore_one_facts t g l p t' : TInv t -> restore_one t g l p = Some t' ->
  by_owner g t t' /\ (forall l', l' <> l -> t' l' = t l') /\ (gle p (gst (t l) g) -> gst (t' l) g = p).
Proof.
  intros HT. rewrite restore_one_guard_op. destruct (gstate_eqb (gst (t l) g) p) eqn:Eq.
  - apply gstate_eqb_eq in Eq. intros [= <-]. split; [apply by_owner_refl, HT|]. split; [reflexivity|intros _; exact Eq].
  - destruct (guard_op_facts p t l g HT) as [b [t1 [-> F]]]. intros [= <-].
    split; [apply F|]. split; [apply F|]. intros Hle. destruct b; [apply F; reflexivity|].
    exfalso. apply (te_refused F eq_refl), gle_allowed; [apply HT|exact Hle|].
    intros E. rewrite E, (proj2 (gstate_eqb_eq _ _) eq_refl) in Eq. discriminate.
Qed.

(* What the rollback list [done] records while a request from table [t0] is under way: for each lock taken so far
   the state the requester's guard had in [t0], which is at most what it has now; its other guards are as in [t0]. *)
Definition Journal (g : gid) (t0 t : table) (done : list (lk * gstate)) : Prop :=
  (forall l p, In (l, p) done -> p = gst (t0 l) g /\ gle p (gst (t l) g)) /\
  (forall l, ~ In l (map fst done) -> gst (t l) g = gst (t0 l) g).
Lemma journal_start g t : Journal g t t [].
Proof. split; [intros l p []|reflexivity]. Qed.
Lemma journal_own_same g t0 t t1 done : Journal g t0 t done -> (forall l, gst (t1 l) g = gst (t l) g) -> Journal g t0 t1 done.
Proof. intros [J1 J2] E. split; [intros l p Hin|intros l Hn]; rewrite E; auto. Qed.
Lemma journal_push g t0 t t1 done l : Journal g t0 t done -> ~ In l (map fst done) ->
  (forall l', l' <> l -> t1 l' = t l') -> gle (gst (t l) g) (gst (t1 l) g) ->
  Journal g t0 t1 (done ++ [(l, gst (t l) g)]).
Proof.
  intros [J1 J2] Hl Ho Hle. split.
  - intros l' p Hin. apply in_app_iff in Hin. destruct Hin as [Hin|[[= <- <-]|[]]].
    + rewrite Ho; [apply J1, Hin|]. intros ->. apply Hl, in_map_iff. exists (l, p). auto.
    + split; [apply J2, Hl|exact Hle].
  - intros l' Hn. rewrite map_app, in_app_iff in Hn. cbn [map fst In] in Hn.
    rewrite Ho by (intros ->; tauto). apply J2. tauto.
Qed.

Lemma nodup_app_l {A} (a b : list A) : NoDup (a ++ b) -> NoDup a.
Proof. induction a as [|x a IH]; cbn; intros H; [constructor|]. inversion H; subst. constructor; [rewrite in_app_iff in *; tauto|auto]. Qed.

Definition others_only (g : gid) (sched : list (list prim)) : Prop := forall ps p, In ps sched -> In p ps -> prim_owner p <> g.
Lemma others_only_tl g sched : others_only g sched -> others_only g (tl sched).
Proof. intros H ps p Hps Hp. destruct sched as [|x r]; [destruct Hps|]. apply (H ps p); [right; assumption|assumption]. Qed.
Lemma others_only_hd g sched p : others_only g sched -> In p (hd [] sched) -> prim_owner p <> g.
Proof. intros H Hp. destruct sched as [|x r]; [destruct Hp|]. apply (H x p); [left; reflexivity|assumption]. Qed.

Lemma prim_step_by_owner t p t' : TInv t -> prim_step t p = Some t' -> by_owner (prim_owner p) t t'.
Proof.
  intros HT. destruct p as [h l|h l|h l]; cbn [prim_owner prim_step].
  - destruct (trylock_facts t l h HT) as [b [t1 [-> F]]]. intros [= <-]. apply F.
  - destruct (tryrlock_facts t l h HT) as [b [t1 [-> F]]]. intros [= <-]. apply F.
  - destruct (unlock_facts t l h HT) as [t1 [-> F]]. intros [= <-]. apply F.
Qed.
Lemma run_prims_keeps : forall ps t g t', TInv t -> (forall p, In p ps -> prim_owner p <> g) -> run_prims t ps = Some t' ->
  TInv t' /\ forall l, gst (t' l) g = gst (t l) g.
Proof.
  induction ps as [|p r IH]; intros t g t' HT Ho H; cbn [run_prims] in H; [injection H as <-; auto|].
  destruct (prim_step t p) as [t1|] eqn:E; [|discriminate].
  pose proof (prim_step_by_owner t p t1 HT E) as F1.
  destruct (IH t1 g t' (proj1 F1) (fun q Hq => Ho q (or_intror Hq)) H) as [HT' K']. split; [assumption|].
  intros l. rewrite K'. apply (proj2 F1). intros Eg. exact (Ho p (or_introl eq_refl) (eq_sym Eg)).
Qed.

Lemma restore_il_own : forall done t g t0 sched t', TInv t -> NoDup (map fst done) -> others_only g sched ->
  Journal g t0 t done -> restore_il t g done sched = Some t' ->
  TInv t' /\ forall l, gst (t' l) g = gst (t0 l) g.
Proof.
  induction done as [|[l p] r IH]; intros t g t0 sched t' HT Hnd Hs J H; cbn [restore_il] in H.
  - injection H as <-. split; [exact HT|]. intros l. apply J. intros [].
  - cbn [map fst] in Hnd. inversion Hnd as [|? ? Hnotin Hnd']; subst.
    destruct (run_prims t (hd [] sched)) as [ta|] eqn:Ea; [|discriminate].
    destruct (run_prims_keeps _ t g ta HT (fun q Hq => others_only_hd g sched q Hs Hq) Ea) as [HTa Ka].
    destruct (journal_own_same g t0 t ta _ J Ka) as [J1 J2].
    destruct (restore_one ta g l p) as [t1|] eqn:E1; [|discriminate].
    destruct (restore_one_facts ta g l p t1 HTa E1) as [[HT1 _] [Ho Hp]].
    destruct (J1 l p (or_introl eq_refl)) as [Ep Hle].
    apply (IH t1 g t0 (tl sched) t' HT1 Hnd' (others_only_tl g sched Hs)); [|exact H]. split.
    + intros l' p' Hin. rewrite Ho; [apply J1; right; exact Hin|].
      intros ->. apply Hnotin, in_map_iff. exists (l, p'). auto.
    + intros l' Hn. destruct (lk_eq_dec l' l) as [->|Hne]; [rewrite (Hp Hle); exact Ep|].
      rewrite (Ho l' Hne). apply J2. intros [E|Hi]; [apply Hne; symmetry; exact E|exact (Hn Hi)].
Qed.
Lemma restore_il_nil : forall done t g, restore_il t g done [] = restore_guards t g done.
Proof. induction done as [|[l p] r IH]; intros; cbn; [reflexivity|]. destruct (restore_one t g l p); [apply IH|reflexivity]. Qed.

Lemma restore_guards_frame : forall done t g t', TInv t -> restore_guards t g done = Some t' -> by_owner g t t'.
Proof.
  induction done as [|[l p] r IH]; intros t g t' HT H; cbn [restore_guards] in H; [injection H as <-; apply by_owner_refl, HT|].
  destruct (restore_one t g l p) as [t1|] eqn:E; [|discriminate]. destruct (restore_one_facts t g l p t1 HT E) as [F1 _].
  exact (by_owner_trans _ _ _ _ F1 (IH t1 g t' (proj1 F1) H)).
Qed.
Lemma refuse_false t g done b t' : refuse t g done = Some (b, t') -> b = false.
Proof. unfold refuse. destruct (restore_guards t g done); [intros [= <- _]; reflexivity|discriminate]. Qed.
Lemma refuse_frame t g done b t' : TInv t -> refuse t g done = Some (b, t') -> by_owner g t t'.
Proof.
  unfold refuse. intros HT H. destruct (restore_guards t g done) as [t1|] eqn:E; [|discriminate]. injection H as _ <-.
  eapply restore_guards_frame; eassumption.
Qed.
Lemma refuse_own t g t0 done b t' : TInv t -> NoDup (map fst done) -> Journal g t0 t done ->
  refuse t g done = Some (b, t') -> forall l, gst (t' l) g = gst (t0 l) g.
Proof.
  unfold refuse. intros HT Hnd J H. destruct (restore_guards t g done) as [t1|] eqn:E; [|discriminate]. injection H as _ <-.
  rewrite <- restore_il_nil in E. apply (restore_il_own done t g t0 [] t1 HT Hnd); [intros ps p []|exact J|exact E].
Qed.

Lemma try_locks_from_frame : forall ls t g done b t', TInv t -> try_locks_from t g ls done = Some (b, t') -> by_owner g t t'.
Proof.
  induction ls as [|l r IH]; intros t g done b t' HT H; cbn [try_locks_from] in H; [injection H as _ <-; apply by_owner_refl, HT|].
  destruct (lk_eqb l LCkpt && _ && _); [eapply refuse_frame; eassumption|].
  destruct (trylock_facts t l g HT) as [bb [t1 [E [F1 _ _ _]]]]. rewrite E in H. apply (by_owner_trans _ _ _ _ F1).
  destruct bb; [eapply IH|eapply refuse_frame]; try eassumption; apply F1.
Qed.
Lemma try_locks_from_own : forall ls t g done t0 t', TInv t -> NoDup (map fst done ++ ls) -> Journal g t0 t done ->
  try_locks_from t g ls done = Some (false, t') -> forall l, gst (t' l) g = gst (t0 l) g.
Proof.
  induction ls as [|l r IH]; intros t g done t0 t' HT Hnd J H; cbn [try_locks_from] in H; [discriminate|].
  destruct (lk_eqb l LCkpt && _ && _); [exact (refuse_own t g t0 done false t' HT (nodup_app_l _ _ Hnd) J H)|].
  assert (Hl : ~ In l (map fst done)) by (intros Hi; apply (NoDup_remove_2 _ _ _ Hnd), in_app_iff; left; exact Hi).
  destruct (trylock_facts t l g HT) as [bb [t1 [E [[HT1 _] Ho Ht Hf]]]]. rewrite E in H. destruct bb.
  - apply (IH t1 g (done ++ [(l, gst (t l) g)]) t0 t' HT1); [|apply journal_push; try assumption|exact H].
    + rewrite map_app. cbn [map fst]. rewrite <- app_assoc. exact Hnd.
    + rewrite (proj1 (Ht eq_refl)). destruct (gst (t l) g); unfold gle; auto.
  - apply (refuse_own t1 g t0 done false t' HT1 (nodup_app_l _ _ Hnd)); [|exact H]. apply (journal_own_same g t0 t); [exact J|].
    intros l'. rewrite (proj1 (Hf eq_refl)). reflexivity.
Qed.

Lemma try_locks_others : forall ls t g b t', TInv t -> NoDup ls -> try_locks t g ls = Some (b, t') ->
  TInv t' /\ forall l h, h <> g -> gst (t' l) h = gst (t l) h.
Proof. intros ls t g b t' HT _ H. exact (try_locks_from_frame ls t g [] b t' HT H). Qed.
(* NoDup: a lock named twice is journalled twice, the second entry with the state the first step left, so the
   rollback would not reach the state before the request *)
Theorem try_locks_refused_changes_nothing : forall ls t g t', TInv t -> NoDup ls -> try_locks t g ls = Some (false, t') ->
  forall l h, gst (t' l) h = gst (t l) h.
Proof.
  intros ls t g t' HT Hnd H l h. destruct (Nat.eq_dec h g) as [->|Hne].
  - exact (try_locks_from_own ls t g [] t t' HT Hnd (journal_start g t) H l).
  - apply (try_locks_from_frame ls t g [] false t' HT H), Hne.
Qed.

(* DB.TryRLocks.  The refusal is proved with the other owners running in between ([try_rlocks_il]); the request as
   one atomic step is the case of an empty schedule. *)
Lemma try_rlocks_il_own : forall ls t g sched done t0 t',
  TInv t -> NoDup (map fst done ++ ls) -> others_only g sched -> Journal g t0 t done ->
  try_rlocks_il true t g ls sched done = Some (false, t') ->
  TInv t' /\ forall l, gst (t' l) g = gst (t0 l) g.
Proof.
  induction ls as [|l r IH]; intros t g sched done t0 t' HT Hnd Hs J H; cbn [try_rlocks_il] in H; [discriminate|].
  destruct (run_prims t (hd [] sched)) as [ta|] eqn:Ea; [|discriminate].
  destruct (run_prims_keeps _ t g ta HT (fun q Hq => others_only_hd g sched q Hs Hq) Ea) as [HTa Ka].
  pose proof (journal_own_same g t0 t ta _ J Ka) as Ja. pose proof (others_only_tl g sched Hs) as Hs'.
  assert (Hl : ~ In l (map fst done)) by (intros Hi; apply (NoDup_remove_2 _ _ _ Hnd), in_app_iff; left; exact Hi).
  cbn [andb] in H. destruct (gstate_eqb (gst (ta l) g) Exclusive) eqn:Ex.
  - exact (IH ta g (tl sched) done t0 t' HTa (NoDup_remove_1 _ _ _ Hnd) Hs' Ja H).
  - destruct (tryrlock_facts ta l g HTa) as [bb [t1 [E [[HT1 _] Ho Ht Hf]]]]. rewrite E in H. destruct bb.
    + apply (IH t1 g (tl sched) (done ++ [(l, gst (ta l) g)]) t0 t' HT1); [|exact Hs'|apply journal_push; try assumption|exact H].
      * rewrite map_app. cbn [map fst]. rewrite <- app_assoc. exact Hnd.
      * rewrite (proj1 (Ht eq_refl)). destruct (gst (ta l) g); unfold gle; auto. discriminate.
    + destruct (restore_il t1 g done (tl sched)) as [t2|] eqn:E2; [|discriminate]. injection H as <-.
      apply (restore_il_own done t1 g t0 (tl sched) t2 HT1 (nodup_app_l _ _ Hnd) Hs'); [|exact E2].
      apply (journal_own_same g t0 ta); [exact Ja|].
      intros l'. rewrite (proj1 (Hf eq_refl)). reflexivity.
Qed.
Theorem shared_range_refused_keeps_own_locks : forall ls t g sched t',
  TInv t -> NoDup ls -> others_only g sched ->
  try_rlocks_il true t g ls sched [] = Some (false, t') ->
  TInv t' /\ forall l, gst (t' l) g = gst (t l) g.
Proof. intros ls t g sched t' HT Hnd Hs H. exact (try_rlocks_il_own ls t g sched [] t t' HT Hnd Hs (journal_start g t) H). Qed.

Lemma try_rlocks_il_nil : forall ls t g done, try_rlocks_il true t g ls [] done = try_rlocks_from t g ls done.
Proof.
  induction ls as [|l r IH]; intros; cbn; [reflexivity|].
  destruct (gstate_eqb (gst (t l) g) Exclusive); [apply IH|].
  destruct (t_tryrlock t l g) as [[[|] t']|]; [apply IH| |reflexivity].
  unfold refuse. rewrite restore_il_nil. destruct (restore_guards t' g done); reflexivity.
Qed.

Lemma try_rlocks_from_frame : forall ls t g done b t', TInv t -> try_rlocks_from t g ls done = Some (b, t') -> by_owner g t t'.
Proof.
  induction ls as [|l r IH]; intros t g done b t' HT H; cbn [try_rlocks_from] in H; [injection H as _ <-; apply by_owner_refl, HT|].
  destruct (gstate_eqb (gst (t l) g) Exclusive); [eapply IH; eassumption|].
  destruct (tryrlock_facts t l g HT) as [bb [t1 [E [F1 _ _ _]]]]. rewrite E in H. apply (by_owner_trans _ _ _ _ F1).
  destruct bb; [eapply IH|eapply refuse_frame]; try eassumption; apply F1.
Qed.
Lemma in_dec_cons {T} (l l0 : lk) r (a b : T) :
  (if in_dec lk_eq_dec l (l0 :: r) then a else b) = if lk_eq_dec l l0 then a else if in_dec lk_eq_dec l r then a else b.
Proof.
  destruct (lk_eq_dec l l0) as [E|E], (in_dec lk_eq_dec l r) as [Hi|Hi], (in_dec lk_eq_dec l (l0 :: r)) as [Hj|Hj];
    try reflexivity; exfalso; cbn [In] in Hj; intuition congruence.
Qed.
Lemma try_rlocks_from_granted : forall ls t g done t', TInv t -> try_rlocks_from t g ls done = Some (true, t') ->
  forall l, gst (t' l) g = if gstate_eqb (gst (t l) g) Exclusive then Exclusive
                           else if in_dec lk_eq_dec l ls then Shared else gst (t l) g.
Proof.
  induction ls as [|l0 r IH]; intros t g done t' HT H l; cbn [try_rlocks_from] in H.
  - injection H as <-. destruct (gstate_eqb (gst (t l) g) Exclusive) eqn:Ex; [apply gstate_eqb_eq, Ex|reflexivity].
  - rewrite in_dec_cons. destruct (gstate_eqb (gst (t l0) g) Exclusive) eqn:Ex0.
    + rewrite (IH t g done t' HT H l). destruct (lk_eq_dec l l0) as [->|Hne]; [rewrite Ex0|]; reflexivity.
    + destruct (tryrlock_facts t l0 g HT) as [bb [t1 [E [[HT1 _] Ho Ht _]]]]. rewrite E in H.
      destruct bb; [|apply refuse_false in H; discriminate].
      rewrite (IH t1 g _ t' HT1 H l). destruct (lk_eq_dec l l0) as [->|Hne]; [|rewrite (Ho l Hne); reflexivity].
      rewrite (proj1 (Ht eq_refl)), Ex0. destruct (in_dec lk_eq_dec l0 r); reflexivity.
Qed.
Lemma downgrade_all_facts : forall ls t g t', TInv t -> (forall l, In l ls -> gst (t l) g <> Unlocked) ->
  downgrade_all t g ls = Some t' ->
  by_owner g t t' /\ (forall l, gst (t' l) g = if in_dec lk_eq_dec l ls then Shared else gst (t l) g).
Proof.
  induction ls as [|l0 r IH]; intros t g t' HT Hx H; cbn [downgrade_all] in H.
  - injection H as <-. split; [apply by_owner_refl, HT|reflexivity].
  - destruct (tryrlock_facts t l0 g HT) as [bb [t1 [E [F1 Ho Ht Hf]]]]. rewrite E in H.
    assert (gst (t1 l0) g = Shared) as Hs.
    { destruct bb; [apply Ht; reflexivity|]. exfalso. apply (Hf eq_refl). intros h Hne Hh.
      apply (Hx l0 (or_introl eq_refl)). apply (inv_excl_alone (t l0) (HT l0) h Hh). congruence. }
    destruct (IH t1 g t' (proj1 F1)) as [F2 Hg]; [|exact H|].
    { intros l Hin. destruct (lk_eq_dec l l0) as [->|Hne]; [congruence|]. rewrite (Ho l Hne). apply Hx. right; exact Hin. }
    split; [exact (by_owner_trans _ _ _ _ F1 F2)|]. intros l. rewrite Hg, in_dec_cons.
    destruct (lk_eq_dec l l0) as [->|Hne]; [|rewrite (Ho l Hne); reflexivity].
    destruct (in_dec lk_eq_dec l0 r); [reflexivity|exact Hs].
Qed.
Lemma try_rlocks_facts ls t g b t' : TInv t -> try_rlocks t g ls = Some (b, t') ->
  by_owner g t t' /\ (b = true -> forall l, gst (t' l) g = if in_dec lk_eq_dec l ls then Shared else gst (t l) g).
Proof.
  intros HT H. unfold try_rlocks in H. destruct (try_rlocks_from t g ls []) as [[b1 t1]|] eqn:E1; [|discriminate].
  pose proof (try_rlocks_from_frame _ _ _ _ _ _ HT E1) as F1. destruct b1; [|injection H as <- <-; split; [exact F1|discriminate]].
  pose proof (try_rlocks_from_granted _ _ _ _ _ HT E1) as D.
  set (ex := filter (fun l => gstate_eqb (gst (t l) g) Exclusive) ls) in *.
  destruct (downgrade_all t1 g ex) as [t2|] eqn:E2; [|discriminate]. injection H as <- <-.
  destruct (downgrade_all_facts ex t1 g t2 (proj1 F1)) as [F2 Hg]; [|exact E2|].
  { intros l Hin. apply filter_In in Hin. destruct Hin as [_ Hx]. rewrite (D l), Hx. discriminate. }
  split; [exact (by_owner_trans _ _ _ _ F1 F2)|]. intros _ l. rewrite Hg, (D l). destruct (in_dec lk_eq_dec l ex) as [Hi|Hi].
  - apply filter_In in Hi. destruct Hi as [Hi _]. destruct (in_dec lk_eq_dec l ls); [reflexivity|contradiction].
  - destruct (gstate_eqb (gst (t l) g) Exclusive) eqn:Ex; [|reflexivity].
    destruct (in_dec lk_eq_dec l ls) as [Hj|Hj]; [exfalso; apply Hi, filter_In; auto|apply gstate_eqb_eq in Ex; congruence].
Qed.
Lemma try_rlocks_others : forall ls t g b t', TInv t -> NoDup ls -> try_rlocks t g ls = Some (b, t') ->
  TInv t' /\ forall l h, h <> g -> gst (t' l) h = gst (t l) h.
Proof. intros ls t g b t' HT _ H. exact (proj1 (try_rlocks_facts ls t g b t' HT H)). Qed.
Theorem try_rlocks_refused_changes_nothing : forall ls t g t', TInv t -> NoDup ls -> try_rlocks t g ls = Some (false, t') ->
  forall l h, gst (t' l) h = gst (t l) h.
Proof.
  intros ls t g t' HT Hnd H l h. destruct (Nat.eq_dec h g) as [->|Hne]; [|apply (try_rlocks_facts ls t g false t' HT H), Hne].
  unfold try_rlocks in H. destruct (try_rlocks_from t g ls []) as [[[|] t1]|] eqn:E1; [destruct (downgrade_all _ _ _); discriminate| |discriminate].
  injection H as <-. rewrite <- try_rlocks_il_nil in E1.
  apply (try_rlocks_il_own ls t g [] [] t t1 HT Hnd); [intros ps p []|apply journal_start|exact E1].
Qed.
Theorem try_rlocks_granted : forall ls t g t', TInv t -> NoDup ls -> try_rlocks t g ls = Some (true, t') ->
  forall l, gst (t' l) g = if in_dec lk_eq_dec l ls then Shared else gst (t l) g.
Proof. intros ls t g t' HT _ H. exact (proj2 (try_rlocks_facts ls t g true t' HT H) eq_refl). Qed.

Lemma ckpt_gating_from : forall ls t g done t', TInv t -> try_locks_from t g ls done = Some (true, t') -> In LCkpt ls ->
  forall h, h <> g -> gst (t LWrite) h = Unlocked.
Proof.
  induction ls as [|l0 r IH]; intros t g done t' HT H Hin h Hne; [destruct Hin|]. cbn [try_locks_from] in H.
  destruct (lk_eqb l0 LCkpt && negb (gstate_eqb (state (t LWrite)) Unlocked) && negb (gstate_eqb (gst (t LWrite) g) Exclusive)) eqn:Hgate.
  { apply refuse_false in H. discriminate. }
  destruct (trylock_facts t l0 g HT) as [bb [t1 [E [[HT1 Hh] _ _ _]]]]. rewrite E in H. destruct bb.
  2:{ apply refuse_false in H. discriminate. }
  destruct (lk_eq_dec l0 LCkpt) as [->|Hl0].
  - (* the gate was open: nobody holds WRITE, or g holds it exclusively *)
    cbn [lk_eqb andb] in Hgate. apply andb_false_iff in Hgate. destruct Hgate as [Hg|Hg]; apply negb_false_iff, gstate_eqb_eq in Hg.
    + pose proof (state_spec (t LWrite) (HT LWrite)) as Hs. rewrite Hg in Hs. cbn in Hs. apply Hs.
    + apply (inv_excl_alone (t LWrite) (HT LWrite) g Hg). assumption.
  - destruct Hin as [E0|Hin]; [congruence|]. rewrite <- (Hh LWrite h Hne). exact (IH t1 g _ t' HT1 H Hin h Hne).
Qed.
Theorem ckpt_gating : forall ls t g t', TInv t -> try_locks t g ls = Some (true, t') -> In LCkpt ls ->
  forall h, h <> g -> gst (t LWrite) h = Unlocked.
Proof. intros ls t g t' HT H. exact (ckpt_gating_from ls t g [] t' HT H). Qed.

Theorem wal_write_allowed_iff t : TInv t -> (wal_write_allowed t = true <-> exists g, gst (t LWrite) g = Exclusive).
Proof.
  intros HT. unfold wal_write_allowed. rewrite gstate_eqb_eq. pose proof (state_spec (t LWrite) (HT LWrite)) as Hs. split.
  - intros E. rewrite E in Hs. exact Hs.
  - intros [g Hg]. destruct (state (t LWrite)) eqn:Es; cbn in Hs; [rewrite Hs in Hg; discriminate| |reflexivity].
    destruct Hs as [_ Hn]. exfalso. apply (Hn g). assumption.
Qed.

Theorem parse_db_range_correct a b l :
  In l (parse_db_range a b) <-> (In l [LPending; LReserved; LShared] /\ (a <= lock_byte l /\ lock_byte l <= b)%N).
Proof. unfold parse_db_range. rewrite filter_In. unfold in_range. rewrite andb_true_iff, !N.leb_le. tauto. Qed.
Theorem parse_shm_range_correct a b l :
  In l (parse_shm_range a b) <-> (In l [LWrite; LCkpt; LRecover; LRead0; LRead1; LRead2; LRead3; LRead4; LDMS] /\ (a <= lock_byte l /\ lock_byte l <= b)%N).
Proof. unfold parse_shm_range. rewrite filter_In. unfold in_range. rewrite andb_true_iff, !N.leb_le. tauto. Qed.
Theorem halt_never_parsed : forall l, lock_byte l <> c_LockTypeHalt.
Proof. intros l. destruct l; vm_compute; discriminate. Qed.

Lemma lstep_inv t o c t' : TInv t -> lstep t o = Some (c, t') -> TInv t'.
Proof.
  intros HT H. destruct o; cbn [lstep] in H.
  - destruct (try_locks t g (map lk_of ls)) as [[b t1]|] eqn:E; [|discriminate]. injection H as _ <-. apply (try_locks_from_frame _ _ _ _ _ _ HT E).
  - destruct (try_rlocks t g (map lk_of ls)) as [[b t1]|] eqn:E; [|discriminate]. injection H as _ <-. apply (try_rlocks_facts _ _ _ _ _ HT E).
  - destruct (unlock_all_facts (map lk_of ls) t g HT) as [t2 [E2 [[HT2 _] _]]]. rewrite E2 in H. injection H as _ <-. exact HT2.
  - destruct (can_lock t g (map lk_of ls)) as [[b m]|]; [|discriminate]. injection H as _ <-. exact HT.
  - destruct (can_rlock t g (map lk_of ls)) as [b|]; [|discriminate]. injection H as _ <-. exact HT.
  - destruct (try_acquire_write_facts t g wal HT) as [b [t1 [E [[HT1 _] _]]]]. rewrite E in H. injection H as _ <-. exact HT1.
  - destruct (unlock_all_facts all_locks t g HT) as [t2 [E2 [[HT2 _] _]]]. rewrite E2 in H. injection H as _ <-. exact HT2.
  - injection H as _ <-. exact HT.
  - destruct (unlock_all_facts db_locks t g HT) as [t2 [E2 [[HT2 _] _]]]. rewrite E2 in H. injection H as _ <-. exact HT2.
  - destruct (unlock_all_facts shm_locks t g HT) as [t2 [E2 [[HT2 _] _]]]. rewrite E2 in H. injection H as _ <-. exact HT2.
Qed.

Lemma db_shm_disjoint l : In l shm_locks -> ~ In l db_locks.
Proof.
  intros Hl Hin. destruct l; cbn in Hin; try (destruct Hin as [E|[E|[E|[]]]]; discriminate E);
    cbn in Hl; destruct Hl as [E|[E|[E|[E|[E|[E|[E|[E|[E|[]]]]]]]]]]; discriminate E.
Qed.
Theorem unlock_database_keeps_shm t g t' : TInv t -> unlock_all t g db_locks = Some t' ->
  (forall l, In l shm_locks -> gst (t' l) g = gst (t l) g) /\ (forall l h, h <> g -> gst (t' l) h = gst (t l) h).
Proof.
  intros HT H. destruct (unlock_all_facts db_locks t g HT) as [t2 [E2 [[_ Hothers] [_ Hnin]]]]. rewrite E2 in H. injection H as <-.
  split; [|exact Hothers]. intros l Hl. apply Hnin, db_shm_disjoint, Hl.
Qed.

(* Tie A: the script the theorems are about IS the order in which db.go TryAcquireWriteLock takes the locks
   (Gen/LockScriptsGen.v is regenerated from the source on every run) *)
Theorem write_script_is_generated : forall wal,
  write_script wal = acts_of (gen_write_common ++ (if wal then gen_write_wal else gen_write_rollback)).
Proof. intros [|]; reflexivity. Qed.

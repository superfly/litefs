(* For the concrete histories of the non-vacuity examples: each X_b is the boolean form of the side condition X of a step
   of C04_history's language, with X_b_sound : X_b .. = true -> X ..; check_gsteps runs a history and decides the side
   conditions on the way, so that an example is one evaluation (gsteps_by_check, gsteps_by_check_with). *)
From Coq Require Import NArith List Lia Bool.
Require Import LF.Model.PageDB LF.Proofs.XorLib LF.Proofs.HistoryProofs LF.Proofs.ApplyHistoryProofs
  LF.Proofs.OpenProofs LF.Proofs.ComposeProofs LF.Proofs.WalCheck.
Import ListNotations.
Local Open Scope N_scope.

(* [look] answers for every number in (a, b] but the lock page *)
Definition range_some_b {A} (lock : N) (look : N -> option A) (a b : N) : bool :=
  forallb (fun x => (x =? lock) || some_b (look x)) (seqN (a + 1) (N.to_nat (b - a))).
Lemma range_some_b_sound {A} lock (look : N -> option A) a b : range_some_b lock look a b = true ->
  forall x, a < x <= b -> x <> lock -> look x <> None.
Proof.
  unfold range_some_b. rewrite forallb_forall. intros H x Hx Hnl. specialize (H x). rewrite seqN_in in H.
  apply orb_true_iff in H; [|lia]. destruct H as [E|E]; [apply N.eqb_eq in E; contradiction|exact (some_b_sound _ E)].
Qed.
Lemma range_some_b_sound1 {A} lock (look : N -> option A) b : range_some_b lock look 0 b = true ->
  forall x, 1 <= x <= b -> x <> lock -> look x <> None.
Proof. intros H x Hx. apply (range_some_b_sound lock look 0 b H). lia. Qed.

Definition wf_ltx_b (f : ltxrec) : bool := forallb (fun kv => 1 <=? fst kv) (l_pages f) && nodupb (map fst (l_pages f)).
Lemma wf_ltx_b_sound f : wf_ltx_b f = true -> wf_ltx f.
Proof.
  unfold wf_ltx_b, wf_ltx. rewrite andb_true_iff, forallb_forall. intros [Hp Hn]. split; [|exact (nodupb_sound _ Hn)].
  intros p q Hin. specialize (Hp (p, q) Hin). cbn [fst] in Hp. lia.
Qed.
Definition wf_file_b (f : ltxrec) : bool := wf_ltx_b f && negb (l_max f =? 0).
Lemma wf_file_b_sound f : wf_file_b f = true -> wf_file f.
Proof.
  unfold wf_file_b, wf_file. rewrite andb_true_iff, negb_true_iff, N.eqb_neq. intros [Hw Hm]. split; [exact (wf_ltx_b_sound f Hw)|exact Hm].
Qed.
Lemma wf_files_b_sound fs : forallb wf_file_b fs = true -> Forall wf_file fs.
Proof. rewrite forallb_forall. intros H. apply Forall_forall. intros f Hin. exact (wf_file_b_sound f (H f Hin)). Qed.

Lemma page1_b_sound {A} (l : list A) (pages : list (N * pg)) : nonempty_b l || some_b (alookup 1 pages) = true -> l <> [] \/ alookup 1 pages <> None.
Proof. intros H. apply orb_true_iff in H. destruct H; [left; apply nonempty_b_sound|right; apply some_b_sound]; assumption. Qed.

Definition wf_restart_b (s : st) : bool :=
  match rev (ltxdir s) with
  | f :: _ => wf_file_b f && range_some_b (lockpg s) (fun x => alookup x (l_pages f)) (pageN (open_recomputed s)) (l_commit f) &&
              (nonempty_b (dbfile (open_recomputed s)) || some_b (alookup 1 (l_pages f)))
  | [] => false
  end.
Lemma wf_restart_b_sound s : wf_restart_b s = true -> wf_restart s.
Proof.
  unfold wf_restart_b, wf_restart. destruct (rev (ltxdir s)) as [|f rest]; [discriminate|]. rewrite !andb_true_iff.
  intros [[Hf Hc] H1]. exists f, rest. split; [reflexivity|]. split; [exact (wf_file_b_sound f Hf)|].
  split; [exact (range_some_b_sound _ _ _ _ Hc)|exact (page1_b_sound _ _ H1)].
Qed.

Definition wf_recv_b (s : st) (f : ltxrec) : bool :=
  wf_file_b f && range_some_b (lockpg s) (fun x => alookup x (l_pages f)) (pageN s) (l_commit f) &&
  (negb (wal_mode s) || negb (nonempty_b (wal_file s))) && (nonempty_b (dbfile s) || some_b (alookup 1 (l_pages f))).
Lemma wf_recv_b_sound s f : wf_recv_b s f = true -> wf_recv s f.
Proof.
  unfold wf_recv_b, wf_recv. rewrite !andb_true_iff. intros [[[Hf Hc] Hw] H1].
  split; [exact (wf_file_b_sound f Hf)|]. split; [exact (range_some_b_sound _ _ _ _ Hc)|]. split; [|exact (page1_b_sound _ _ H1)].
  intros Hm. rewrite Hm in Hw. destruct (wal_file s); [reflexivity|discriminate].
Qed.

Definition wf_import_b (s : st) (pages : list (N * pg)) (commit : N) : bool :=
  forallb (fun kv => 1 <=? fst kv) pages && nodupb (map fst pages) && negb (commit =? 0) && negb (lockpg s =? 1) &&
  forallb (fun x => some_b (alookup x pages)) (seqN 1 (N.to_nat commit)).
Lemma wf_import_b_sound s pages commit : wf_import_b s pages commit = true -> wf_import s pages commit.
Proof.
  unfold wf_import_b, wf_import. rewrite !andb_true_iff, !forallb_forall, !negb_true_iff, !N.eqb_neq.
  intros [[[[Hp Hn] Hc] Hl] Hcov]. split; [|split; [exact (nodupb_sound _ Hn)|split; [exact Hc|split; [exact Hl|]]]].
  - intros p q Hin. specialize (Hp (p, q) Hin). cbn [fst] in Hp. lia.
  - intros x Hx. apply some_b_sound, Hcov, seqN_in. lia.
Qed.

Definition wf_gstep_b (s : st) (g : gstep) : bool :=
  match g with
  | GJ h => negb (wal_mode s) && wf_step_b s h
  | GSwitch zf acts c => negb (wal_mode s) && wf_tx_any_b s zf acts &&
                         match run_group s (hops s (HTx zf acts c)) with (0, s') => wal_mode s' | _ => true end
  | GW o => wal_mode s && wf_wop2_b s o
  | GLeave q c => wal_mode s && negb (nonempty_b (wal_file s)) && negb (pg_wal q)
  | GRestart => wf_restart_b s
  | GRecv f | GForward f _ => wf_recv_b s f
  | GDrop => true
  | GImport pages commit => wf_import_b s pages commit
  end.
Lemma wf_gstep_b_sound s g : wf_gstep_b s g = true -> wf_gstep s g.
Proof.
  destruct g as [h|zf acts c|o|q c| |f|f ok| |pages commit]; cbn [wf_gstep_b wf_gstep]; rewrite ?andb_true_iff, ?negb_true_iff.
  - intros [Hm H]. split; [exact Hm|exact (wf_step_b_sound s h H)].
  - intros [[Hm H] Hr]. split; [exact Hm|]. split; [exact (wf_tx_any_b_sound s zf acts H)|]. intros s' E. rewrite E in Hr. exact Hr.
  - intros [Hm H]. split; [exact Hm|exact (wf_wop2_b_sound s o H)].
  - intros [[Hm Hf] Hq]. split; [exact Hm|]. split; [destruct (wal_file s); [reflexivity|discriminate]|exact Hq].
  - apply wf_restart_b_sound.
  - apply wf_recv_b_sound.
  - apply wf_recv_b_sound.
  - exact (fun _ => I).
  - apply wf_import_b_sound.
Qed.

Fixpoint check_gsteps (s : st) (v : N -> N) (gs : list gstep) : option (st * (N -> N)) :=
  match gs with
  | [] => Some (s, v)
  | g :: r => if wf_gstep_b s g
              then match grun s g with Some s' => check_gsteps s' (gview s s' g v) r | None => None end
              else None
  end.

Lemma check_gsteps_sound : forall gs s v r, check_gsteps s v gs = Some r -> wf_gsteps s gs /\ run_gsteps s v gs = Some r.
Proof.
  induction gs as [|g gs IH]; intros s v r H; cbn [check_gsteps wf_gsteps run_gsteps] in *; [auto|].
  destruct (wf_gstep_b s g) eqn:Ew; [|discriminate]. destruct (grun s g) as [s1|]; [|discriminate].
  destruct (IH s1 _ r H) as [A B]. split; [|exact B]. split; [exact (wf_gstep_b_sound s g Ew)|].
  intros s2 E. inversion E; subst s2. exact A.
Qed.

(* the shape of the non-vacuity examples: the side conditions hold and the run ends in a state with the observation [Q] *)
Lemma gsteps_by_check (Q : st -> (N -> N) -> Prop) s v gs :
  match check_gsteps s v gs with Some (s', v') => Q s' v' | None => False end ->
  wf_gsteps s gs /\ match run_gsteps s v gs with Some (s', v') => Q s' v' | None => False end.
Proof. exact (by_check _ _ _ (fun r => let '(s', v') := r in Q s' v') (check_gsteps_sound gs s v)). Qed.

(* with a further side condition [P] on the state the run ends in, established through its checked form [C] *)
Lemma gsteps_by_check_with (C : st -> bool) (P : st -> Prop) (Q : st -> (N -> N) -> Prop) s v gs :
  (forall s', C s' = true -> P s') ->
  match check_gsteps s v gs with Some (s', v') => C s' = true /\ Q s' v' | None => False end ->
  wf_gsteps s gs /\ match run_gsteps s v gs with Some (s', v') => P s' /\ Q s' v' | None => False end.
Proof.
  intros HC H. apply gsteps_by_check. destruct (check_gsteps s v gs) as [[s' v']|]; [|exact H].
  split; [exact (HC s' (proj1 H))|exact (proj2 H)].
Qed.
Arguments gsteps_by_check_with C {P Q s v gs}.

Lemma wf_gsteps_checked s gs : some_b (check_gsteps s (fun _ => 0) gs) = true -> wf_gsteps s gs.
Proof.
  destruct (check_gsteps s (fun _ => 0) gs) as [r|] eqn:E; [|discriminate]. intros _. exact (proj1 (check_gsteps_sound gs s _ r E)).
Qed.

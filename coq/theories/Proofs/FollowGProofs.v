(* C01 without the no-collision premise, over the steps of C04_history: what each kind of step other than the node's own
   restart publishes, and that it changes no logical page outside the file it publishes (g_pub); the runs [follow] and
   [followw] as runs of [followg]. *)
From Coq Require Import NArith List Lia Bool.
Require Import LF.Model.PageDB LF.Proofs.ChecksumProofs LF.Proofs.CaptureProofs LF.Proofs.ChainProofs
  LF.Proofs.HistoryProofs LF.Proofs.WalHistoryProofs LF.Proofs.WalCheckpointProofs LF.Proofs.SqlCheckpointProofs
  LF.Proofs.ApplyHistoryProofs LF.Proofs.ComposeProofs LF.Proofs.FollowProofs LF.Proofs.FollowWalProofs.
Import ListNotations.
Local Open Scope N_scope.

Lemma commit_wal_dirty s frames commit s' : op_commit_wal s frames commit = (Done, s') -> dirty s' = dirty s.
Proof.
  intros H. apply op_commit_wal_inv in H. destruct H as (new & post & s1 & _ & Eck & _ & ->).
  pose proof (frame_checksum s commit new) as F. rewrite Eck in F. exact (fr_dirty _ _ F).
Qed.
Lemma checkpoint_dirty s s' : op_checkpoint s = (Done, s') -> dirty s' = dirty s.
Proof. intros H. pose proof (checkpoint_keeps s) as K. rewrite H in K. apply K. Qed.
Lemma wop2_dirty s v o s' : WL s v -> run_group s (wop2_ops s o) = (0, s') -> dirty s' = dirty s.
Proof.
  intros HW H. destruct o as [fr c| |p|p q|]; cbn [wop2_ops] in H.
  - apply run_group_one in H. exact (commit_wal_dirty s fr c s' H).
  - apply run_group_one in H. exact (checkpoint_dirty s s' H).
  - destruct (alookup p (wpages s)) as [q|].
    + apply run_group_one in H. cbn [step] in H. rewrite (op_write_page_wal s p q (w_w s v HW) (w_mode s v HW)) in H.
      injection H as <-. reflexivity.
    + cbn [run_group] in H. injection H as <-. reflexivity.
  - apply run_group_one in H. cbn [step] in H. rewrite (op_write_page_wal s p q (w_w s v HW) (w_mode s v HW)) in H.
    injection H as <-. reflexivity.
  - rewrite (sql_ckpt_run s s' (w_w s v HW) (w_mode s v HW) H).
    exact (fr_dirty _ _ (frame_trans _ _ _ (frame_fold_write (backfill_list s) s) (frame_truncate_db _ (pageN s)))).
Qed.

(* the way back out of WAL mode: the log removed and page 1 rewritten form the body of a rollback-journal transaction *)
Lemma leave_body s q : dirty s = [] ->
  SameM s (write_db_page (with_dirty (with_wal s [] [] []) (insert_sorted 1 (dirty s))) 1 q).
Proof.
  intros Hd.
  assert (Ed : dirty (write_db_page (with_dirty (with_wal s [] [] []) (insert_sorted 1 (dirty s))) 1 q) = [1]).
  { change (insert_sorted 1 (dirty s) = [1]). rewrite Hd. reflexivity. }
  constructor.
  - intros x Hx Hnd. rewrite Ed in Hnd. rewrite fpg_write by lia.
    destruct (N.eqb_spec x 1) as [->|_]; [contradiction Hnd; left; reflexivity|reflexivity].
  - reflexivity.
  - rewrite Ed. repeat constructor.
  - rewrite Ed. intros x [<-|[]]. lia.
  - repeat split; reflexivity.
Qed.

Lemma leave_pub sP v q c sP' : WL sP v -> WK sP v -> wal_file sP = [] -> dirty sP = [] -> pg_wal q = false ->
  run_group sP (leave_ops q c) = (0, sP') -> Pub sP sP' (lpage sP) (lpage sP') (new_files sP sP') /\ dirty sP' = [].
Proof.
  intros HW HK Hf Hd Hq H. destruct (leave_step sP v q c sP' HW HK Hf Hq H) as [_ [Hf' _]].
  change (leave_ops q c) with ([OWalTruncate; OWriteJ 1 q] ++ [OCommitJournal c]) in H.
  rewrite run_group_app, (leave_prefix sP q (w_w sP v HW)) in H. apply run_group_one in H.
  destruct (commit_pub sP _ c sP' (leave_body sP q Hd) H) as [HP Hd']. split; [|exact Hd'].
  exact (pub_nolog sP sP' _ Hf Hf' HP).
Qed.

Lemma follow_leave sP sR v q c sP' sR' : WL sP v -> WK sP v -> wal_file sP = [] -> dirty sP = [] -> SimW sP sR -> pg_wal q = false ->
  run_group sP (leave_ops q c) = (0, sP') -> run_recv sR (new_files sP sP') = Some sR' ->
  dirty sP' = [] /\ SimW sP' sR'.
Proof.
  intros HW HK Hf Hd HS Hq H HR. destruct (leave_pub sP v q c sP' HW HK Hf Hd Hq H) as [HP Hd'].
  split; [exact Hd'|exact (simw_pub sP sP' _ sR sR' HP HS HR)].
Qed.

Lemma htx_pub k s zf acts c s' : dirty s = [] -> wal_mode s = false -> wal_file s = [] ->
  (forall p q, In (p, q) zf -> pageN s < p) -> Forall (act_ok k) acts ->
  run_group s (hops s (HTx zf acts c)) = (0, s') -> Pub s s' (lpage s) (lpage s') (new_files s s') /\ dirty s' = [].
Proof.
  intros Hd Hm Hf Hzf Hacts H. destruct (htx_body k s zf acts c s' Hd Hm Hzf Hacts H) as [s2 [SM Hc]].
  destruct (commit_pub s s2 c s' SM Hc) as [HP Hd']. split; [|exact Hd'].
  assert (Hf' : wal_file s' = []) by (rewrite (run_group_wal_file _ s s' (hops_jops s (HTx zf acts c)) H); exact Hf).
  exact (pub_nolog s s' _ Hf Hf' HP).
Qed.

(* a node s applies a file: it becomes the newest of its log and its pages the node's.  [s1] is s with the file placed in its
   log - with_dir for a file from the stream, the reset state of an import - and holds the database file of s. *)
Lemma apply_pub s s1 f b s' rest : op_apply s1 f b = (Done, s') -> dbfile s1 = dbfile s -> lockpg s1 = lockpg s ->
  rev (ltxdir s1) = f :: rest -> wf_ltx f -> refused s f = false -> wal_file s' = [] ->
  (forall x, 1 <= x <= l_commit f -> x <> lockpg s -> alookup x (l_pages f) = None -> x <= pageN s /\ lpage s x = fpg s x) ->
  Pub s s' (lpage s) (lpage s') [f].
Proof.
  intros H Ef El Hd Hwf Hr Hf' Hg.
  destruct (apply_done _ f b s' H) as [At [Ac [Ap Ad]]]. pose proof (apply_lockpg _ f b s' H) as Al.
  assert (Hpg : forall x, 1 <= x <= l_commit f ->
            lpage s' x = match alookup x (l_pages f) with Some q => q | None => fpg s x end).
  { intros x Hx. rewrite (lpage_nolog s' x Hf'), (apply_fpg _ f b s' H Hwf ltac:(lia) x Hx), (fpg_ext s1 s x Ef). reflexivity. }
  apply (pub_one _ _ _ _ f rest); try assumption; try congruence.
  - intros p q Hin Hpq. rewrite (Hpg p Hpq), (in_alookup_nodup p q _ (proj2 Hwf) Hin). reflexivity.
  - intros x Hx Hnl Ea. destruct (Hg x Hx Hnl Ea) as [Hle E]. split; [exact Hle|]. rewrite (Hpg x Hx), Ea, E. reflexivity.
Qed.

Lemma drop_pub s s' : op_drop s = (Done, s') -> Pub s s' (lpage s) (lpage s') (new_files s s') /\ dirty s' = dirty s.
Proof.
  unfold op_drop. destruct (negb (writeable s)); [discriminate|]. intros H. injection H as <-. split; [|reflexivity].
  rewrite (new_files_snoc s _ (mkLtx (txid s + 1) (txid s + 1) (chk s) flag 0 [])) by reflexivity.
  apply (pub_one _ _ _ _ _ (rev (ltxdir s))); try reflexivity.
  - apply rev_unit.
  - unfold refused, extends_pos. cbn [l_min l_pre]. rewrite !N.eqb_refl. apply andb_false_r.
  - split; [intros p q []|constructor].
  - intros p q [].
  - cbn [l_commit]. intros x Hx. lia.
Qed.

Lemma import_pub s pages commit s' : wf_import s pages commit ->
  op_import s pages commit true = (Done, s') -> Pub s s' (lpage s) (lpage s') (new_files s s') /\ dirty s' = [].
Proof.
  intros [Hpos [Hnd [Hc0 [Hl1 Hcov]]]] H. destruct (op_import_inv s pages commit true s' H) as [_ [_ Ha]].
  set (f := import_file s pages commit) in *. set (s1 := import_start s pages commit) in *.
  destruct (apply_done s1 f true s' Ha) as [_ [_ [_ Ad]]].
  split; [|rewrite (apply_dirty s1 f true s' Ha); reflexivity].
  rewrite (new_files_snoc s s' f Ad).
  apply (apply_pub s s1 f true s' (rev (ltxdir s)) Ha); try reflexivity.
  - apply rev_unit.
  - split; cbn [l_pages f import_file]; [|apply keys_filter; exact Hnd].
    intros p q Hin. apply filter_In in Hin. apply (Hpos p q). tauto.
  - unfold refused, extends_pos. cbn [l_min l_pre f import_file]. rewrite !N.eqb_refl. apply andb_false_r.
  - exact (apply_wal_file s1 f true s' Ha eq_refl).
  - cbn [l_commit l_pages f import_file]. intros x Hx Hnl Ea. exfalso. apply (Hcov x Hx).
    rewrite <- Ea, (alookup_filter_key (fun k => negb (k =? lockpg s))).
    destruct (N.eqb_spec x (lockpg s)); [contradiction|reflexivity].
Qed.

Lemma both_apply sP sR f d1 d2 sP' sR' : SimW sP sR -> wpages sP = [] -> wf_ltx f ->
  (forall x, pageN sP < x <= l_commit f -> x <> lockpg sP -> alookup x (l_pages f) <> None) ->
  op_apply (with_dir sP d1) f true = (Done, sP') -> op_apply (with_dir sR d2) f true = (Done, sR') ->
  wal_file sP' = [] -> SimW sP' sR'.
Proof.
  intros [A B C D E] Hwp Hwf Hg HP HRr Hf'.
  destruct (apply_done _ f true sP' HP) as [Pt [Pc [Pp _]]]. destruct (apply_done _ f true sR' HRr) as [Rt [Rc [Rp _]]].
  pose proof (apply_lockpg _ f true sP' HP) as Pl. pose proof (apply_lockpg _ f true sR' HRr) as Rl. cbn [lockpg with_dir] in Pl, Rl.
  constructor; try congruence.
  intros x Hx Hnl. rewrite Pp in Hx. rewrite Pl in Hnl.
  rewrite (lpage_nolog sP' x Hf'), (apply_fpg _ f true sR' HRr Hwf ltac:(lia) x Hx), (apply_fpg _ f true sP' HP Hwf ltac:(lia) x Hx).
  destruct (alookup x (l_pages f)) as [q|] eqn:Ea; [reflexivity|].
  change (fpg sR x = fpg sP x).
  assert (x <= pageN sP) as Hle by (destruct (N.le_gt_cases x (pageN sP)); [assumption|exfalso; apply (Hg x); [lia|assumption|exact Ea]]).
  rewrite (E x ltac:(lia) Hnl). unfold lpage. rewrite Hwp. reflexivity.
Qed.

(* the history: the primary's steps, the follower being sent what each publishes *)
Definition sent (sP : st) (g : gstep) (sP' : st) : list ltxrec :=
  match g with
  | GRecv f => if refused sP f then [] else [f]                 (* the file reaches both nodes *)
  | GForward f ok => if fwd_refused sP f ok then [] else [f]    (* the forwarded transaction goes on down the stream *)
  | _ => new_files sP sP'
  end.
Definition no_restart (g : gstep) : Prop := match g with GRestart => False | _ => True end.
Definition FGInv (sP sR : st) (v : N -> N) : Prop := GInv sP v /\ dirty sP = [] /\ SimW sP sR.
Lemma restart_or_not g : no_restart g \/ g = GRestart.
Proof. destruct g; cbn; auto. Qed.

Lemma applied_pub s v f s' : GInv s v -> wf_recv s f -> refused s f = false -> applied_to s f s' ->
  Pub s s' (lpage s) (lpage s') [f] /\ dirty s' = dirty s.
Proof.
  intros HI [[Hwf _] [Hg [Hwm _]]] Hr H. destruct (ginv_nolog s v HI Hwm) as [_ [_ [Hf _]]]. unfold applied_to in H.
  split; [|exact (apply_dirty _ f true s' H)].
  apply (apply_pub s _ f true s' (if is_snapshot f then [] else rev (ltxdir s)) H); try reflexivity; try assumption.
  - cbn [ltxdir with_dir]. destruct (is_snapshot f); [reflexivity|apply rev_unit].
  - exact (apply_wal_file _ f true s' H Hf).
  - intros x Hx Hnl Ea. split; [|exact (lpage_nolog s x Hf)].
    destruct (N.le_gt_cases x (pageN s)); [assumption|exfalso; apply (Hg x); [lia|assumption|exact Ea]].
Qed.

Lemma g_pub s v g s' : GInv s v -> dirty s = [] -> wf_gstep s g -> no_restart g -> grun s g = Some s' ->
  Pub s s' (lpage s) (lpage s') (sent s g s') /\ dirty s' = [].
Proof.
  intros HI Hd Hwf Hnr H. apply grun_inv in H. pose proof (pub_none s s (lpage s) (lpage s)) as Hnone.
  destruct g as [h|zf acts c|o|q c| |f|f ok| |pages commit]; cbn [wf_gstep sent no_restart] in *.
  - destruct Hwf as [Hm Hws]. pose proof (proj1 (proj2 (ginv_j s v HI Hm))) as Hf. destruct h as [zf acts c|n]; cbn [wf_step] in Hws.
    + destruct Hws as [_ [Hzf Hacts]]. exact (htx_pub true s zf acts c s' Hd Hm Hf (fun p q Hin => proj1 (Hzf p q Hin)) Hacts H).
    + cbn [hops] in H. apply run_group_one in H. destruct (truncate_pub s n s' H) as [HP [Hd' Hf']].
      split; [exact (pub_nolog s s' _ Hf ltac:(congruence) HP)|congruence].
  - destruct Hwf as [Hm [[_ [Hzf Hacts]] _]]. exact (htx_pub false s zf acts c s' Hd Hm (proj1 (proj2 (ginv_j s v HI Hm))) Hzf Hacts H).
  - destruct Hwf as [Hm Hwo]. destruct (ginv_w s v HI Hm) as [HW HK].
    split; [exact (wop2_pub s v o s' HW HK Hwo H)|rewrite (wop2_dirty s v o s' HW H); exact Hd].
  - destruct Hwf as [Hm [Hf Hq]]. destruct (ginv_w s v HI Hm) as [HW HK].
    exact (leave_pub s v q c s' HW HK Hf Hd Hq H).
  - contradiction.
  - destruct (refused s f) eqn:Er; [subst s'; split; [apply Hnone; reflexivity|exact Hd]|].
    destruct (applied_pub s v f s' HI Hwf Er H) as [HP Hd']. split; [exact HP|congruence].
  - destruct (fwd_refused s f ok) eqn:Er; [subst s'; split; [apply Hnone; reflexivity|exact Hd]|].
    assert (refused s f = false) as Er'.
    { unfold fwd_refused in Er. apply orb_false_iff in Er. destruct Er as [Er _]. unfold refused. rewrite Er. apply andb_false_r. }
    destruct (applied_pub s v f s' HI Hwf Er' H) as [HP Hd']. split; [exact HP|congruence].
  - destruct (drop_pub s s' H) as [HP Hd']. split; [exact HP|congruence].
  - exact (import_pub s pages commit s' Hwf H).
Qed.

(* as in followw, [v] is carried along ([gview]) and never read *)
Fixpoint followg (sP sR : st) (v : N -> N) (gs : list gstep) : option (st * st) :=
  match gs with
  | [] => Some (sP, sR)
  | g :: r => match grun sP g with
              | Some sP' => match run_recv sR (sent sP g sP') with
                            | Some sR' => followg sP' sR' (gview sP sP' g v) r
                            | None => None
                            end
              | None => None
              end
  end.
Fixpoint wf_fgsteps (s : st) (gs : list gstep) : Prop :=
  match gs with
  | [] => True
  | g :: r => wf_gstep s g /\ no_restart g /\ forall s', grun s g = Some s' -> wf_fgsteps s' r
  end.

Lemma wf_fgsteps_gsteps : forall gs s, wf_fgsteps s gs -> wf_gsteps s gs.
Proof.
  induction gs as [|g r IH]; intros s H; cbn [wf_fgsteps wf_gsteps] in *; [exact I|].
  destruct H as [A [_ B]]. split; [exact A|]. intros s' E. exact (IH s' (B s' E)).
Qed.

Lemma wf_fgsteps_of_gsteps : forall gs s, wf_gsteps s gs -> Forall no_restart gs -> wf_fgsteps s gs.
Proof.
  induction gs as [|g r IH]; intros s H Hn; cbn [wf_gsteps wf_fgsteps] in *; [exact I|].
  inversion Hn as [|? ? Hg Hr]; subst. destruct H as [A B]. split; [exact A|]. split; [exact Hg|].
  intros s' E. exact (IH s' (B s' E) Hr).
Qed.

Lemma follow_followg v : forall hs sP sR, follow sP sR hs = followg sP sR v (map GJ hs).
Proof.
  intros hs. revert v. induction hs as [|h r IH]; intros v sP sR; cbn [follow followg map grun sent]; [reflexivity|].
  destruct (run_group sP (hops sP h)) as [code s1]. destruct code; [|reflexivity].
  destruct (run_recv sR (new_files sP s1)); [apply IH|reflexivity].
Qed.
Lemma followw_followg : forall os sP sR v, followw sP sR v os = followg sP sR v (map GW os).
Proof.
  induction os as [|o r IH]; intros sP sR v; cbn [followw followg map grun sent gview]; [reflexivity|].
  destruct (run_group sP (wop2_ops sP o)) as [code s1]. destruct code; [|reflexivity].
  destruct (run_recv sR (new_files sP s1)); [apply IH|reflexivity].
Qed.
Lemma wf_hist_gsteps : forall hs s, J s -> wf_hist s hs -> wf_gsteps s (map GJ hs).
Proof.
  induction hs as [|h r IH]; intros s HJ H; cbn [wf_hist wf_gsteps map wf_gstep grun] in *; [exact I|].
  destruct H as [A B]. split; [split; [apply (j_mode s HJ)|exact A]|].
  intros s' E. destruct (run_group s (hops s h)) as [code s1] eqn:E1. destruct code; [|discriminate]. injection E as <-.
  apply IH; [apply (j_step s h s1 HJ A E1)|apply B; reflexivity].
Qed.
Lemma wf_wops2_gsteps : forall os s v, WL s v -> WK s v -> wf_wops2 s os -> wf_gsteps s (map GW os).
Proof.
  induction os as [|o r IH]; intros s v HW HK H; cbn [wf_wops2 wf_gsteps map wf_gstep grun] in *; [exact I|].
  destruct H as [A B]. split; [split; [apply (w_mode s v HW)|exact A]|].
  intros s' E. destruct (run_group s (wop2_ops s o)) as [code s1] eqn:E1. destruct code; [|discriminate]. injection E as <-.
  destruct (wop2_step s v o s1 HW HK A E1) as [HW1 [HK1 _]]. exact (IH s1 _ HW1 HK1 (B s1 eq_refl)).
Qed.

Lemma fginv_init lock : 1 <= lock -> FGInv (init lock) (init lock) (fun _ => 0).
Proof.
  intros Hl. split; [exact (ginv_init lock Hl)|].
  split; [reflexivity|]. constructor; reflexivity.
Qed.

(* C10: with the lock hand-over that takes READ before releasing WRITE, every interleaving gives the image
   of the captured position; with Export's order there is a schedule that gives a mixture. *)
From Coq Require Import NArith List Bool Lia Arith.
Require Import LF.Base.RWBase LF.Gen.LockScriptsGen LF.Model.Locks LF.Proofs.LocksProofs.
Require Import LF.Model.PageDB LF.Model.Snapshot.
Import ListNotations.
Local Open Scope N_scope.

Lemma alookup_app {A} p (a b : list (N * A)) :
  alookup p (a ++ b) = match alookup p a with Some q => Some q | None => alookup p b end.
Proof.
  induction a as [|[k v] r IH]; cbn [app alookup]; [reflexivity|]. destruct (p =? k); [reflexivity|exact IH].
Qed.

(* ghost consistency: what a connection sees is the image of the current position *)
Definition view_current (s : sst) : Prop := forall p, view s p = s_hist s (s_pos s) p.
Lemma oev_keeps_reader s o :
  s_held (oev_exec s o) = s_held s /\ s_cpos (oev_exec s o) = s_cpos s /\ s_cwal (oev_exec s o) = s_cwal s /\ s_out (oev_exec s o) = s_out s.
Proof. unfold oev_exec. destruct (negb (oev_allowed s o)); [tauto|]. destruct o; cbn; tauto. Qed.

Lemma oev_view_current s o : view_current s -> view_current (oev_exec s o).
Proof.
  intros HG. unfold oev_exec. destruct (negb (oev_allowed s o)) eqn:Ea; [exact HG|].
  destruct o as [w| |w]; unfold view_current, view in *; cbn [newpos s_file s_wal s_pos s_hist]; intros p.
  - rewrite Nat.eqb_refl, alookup_app. unfold fupd, view. destruct (alookup p w); reflexivity.
  - cbn. apply HG.
  - assert (s_wal s = []) as Hr by (cbn [oev_allowed] in Ea; apply negb_false_iff, andb_true_iff in Ea; destruct Ea as [_ Ea]; destruct (s_wal s); [reflexivity|discriminate]).
    rewrite Nat.eqb_refl. unfold fupd, view. rewrite Hr. cbn [alookup]. destruct (alookup p w); reflexivity.
Qed.
Lemma oev_hist_old s o n : (n <= s_pos s)%nat -> s_hist (oev_exec s o) n = s_hist s n /\ (s_pos s <= s_pos (oev_exec s o))%nat.
Proof.
  intros Hn. unfold oev_exec. destruct (negb (oev_allowed s o)); [split; [reflexivity|lia]|].
  destruct o; cbn [newpos s_hist s_pos]; try (split; [reflexivity|lia]);
    (split; [destruct (Nat.eqb_spec n (S (s_pos s))); [lia|reflexivity]|lia]).
Qed.

Lemma oev_blocked s o : s_held s SLShared = true -> s_held s SLWrite = true -> oev_exec s o = s.
Proof. intros Hs Hw. unfold oev_exec. destruct o; cbn [oev_allowed]; rewrite ?Hw, ?Hs; reflexivity. Qed.
(* while the reader holds SHARED and one of WRITE, CKPT, READ, nothing rewrites the database file *)
Definition file_safe (h : slock -> bool) : Prop :=
  h SLShared = true /\ (h SLWrite = true \/ h SLCkpt = true \/ h SLRead = true).
Lemma oev_file_fixed s o : file_safe (s_held s) -> s_file (oev_exec s o) = s_file s.
Proof.
  intros [Hs Hx]. unfold oev_exec. destruct o; cbn [oev_allowed].
  - destruct (negb (negb (s_held s SLWrite))); reflexivity.
  - destruct Hx as [H|[H|H]]; rewrite H; cbn [negb andb]; rewrite ?andb_false_r; reflexivity.
  - rewrite Hs. reflexivity.
Qed.

Lemma out_is_image_nil s : s_out s = [] -> out_is_image s.
Proof. unfold out_is_image. intros ->. destruct (s_cpos s); [intros p q []|reflexivity]. Qed.
Lemma out_is_image_oev s o : out_is_image s -> (forall n, s_cpos s = Some n -> (n <= s_pos s)%nat) -> out_is_image (oev_exec s o).
Proof.
  intros Ho Hpos. destruct (oev_keeps_reader s o) as [_ [Ec [_ Eo]]]. unfold out_is_image in *. rewrite Ec, Eo.
  destruct (s_cpos s) as [n|]; [|exact Ho]. intros p q Hin. rewrite (proj1 (oev_hist_old s o n (Hpos n eq_refl))). auto.
Qed.

(* A script is safe for the reader holding [h] at stage [st] if the two captures happen in this order with SHARED and
   WRITE held from the first to the second, every read comes after them, and from the second capture to the last read
   the database file is protected. *)
Inductive stage := Pre | Pos | Both.
Fixpoint has_read (sc : list sstep) : bool :=
  match sc with [] => false | SRead _ :: _ => true | _ :: r => has_read r end.
Definition guard (st : stage) (h : slock -> bool) (rest : list sstep) : Prop :=
  match st with
  | Pre => True
  | Pos => h SLShared = true /\ h SLWrite = true
  | Both => has_read rest = true -> file_safe h
  end.
Definition hupd (h : slock -> bool) (l : slock) (b : bool) : slock -> bool :=
  fun x => match x, l with
           | SLShared, SLShared | SLWrite, SLWrite | SLCkpt, SLCkpt | SLRead, SLRead => b
           | _, _ => h x
           end.
Definition next_held (h : slock -> bool) (x : sstep) : slock -> bool :=
  match x with SAcquire l => hupd h l true | SRelease l => hupd h l false | _ => h end.
Definition next_stage (st : stage) (x : sstep) : stage :=
  match x with SCapturePos => Pos | SCaptureWal => Both | _ => st end.
Fixpoint safe (st : stage) (h : slock -> bool) (sc : list sstep) : Prop :=
  match sc with
  | [] => True
  | x :: r =>
    match x with SCapturePos => st = Pre | SCaptureWal => st = Pos | SRead _ => st = Both | _ => True end /\
    guard (next_stage st x) (next_held h x) r /\ safe (next_stage st x) (next_held h x) r
  end.

(* the captured view: what the reader will read for page p as long as the file does not change *)
Definition reads_image (s : sst) (n : nat) (cw : list (N * pg)) : Prop :=
  forall p, match alookup p cw with Some q => q | None => s_file s p end = s_hist s n p.
(* what the reader's state satisfies at each stage, with [sc] left to run *)
Definition facts (st : stage) (sc : list sstep) (s : sst) : Prop :=
  match st with
  | Pre => s_cpos s = None /\ s_cwal s = None /\ s_out s = []
  | Pos => s_cpos s = Some (s_pos s) /\ s_cwal s = None /\ s_out s = []
  | Both => exists n cw, s_cpos s = Some n /\ s_cwal s = Some cw /\ (n <= s_pos s)%nat /\ out_is_image s /\
              (has_read sc = true -> reads_image s n cw)
  end.
Definition SInv (st : stage) (sc : list sstep) (s : sst) : Prop :=
  safe st (s_held s) sc /\ guard st (s_held s) sc /\ view_current s /\ facts st sc s.

Lemma SInv_out st sc s : SInv st sc s -> out_is_image s.
Proof.
  intros [_ [_ [_ F]]]. destruct st; cbn [facts] in F; [apply out_is_image_nil, F|apply out_is_image_nil, F|].
  destruct F as [n [cw [_ [_ [_ [Ho _]]]]]]. exact Ho.
Qed.

Lemma SInv_oev st sc s o : SInv st sc s -> SInv st sc (oev_exec s o).
Proof.
  intros [Hsafe [Hg [HG F]]]. destruct (oev_keeps_reader s o) as [Eh [Ec [Ew Eo]]].
  split; [rewrite Eh; exact Hsafe|]. split; [rewrite Eh; exact Hg|]. split; [apply oev_view_current, HG|].
  destruct st; cbn [facts guard] in *.
  - rewrite Ec, Ew, Eo. exact F.
  - (* SHARED and WRITE held: nobody commits, nothing rewrites the file *)
    rewrite (oev_blocked s o); [exact F|apply Hg|apply Hg].
  - destruct F as [n [cw [Hc [Hw [Hle [Ho Hr]]]]]]. destruct (oev_hist_old s o n Hle) as [Hh Hp].
    exists n, cw. rewrite Ec, Ew. split; [exact Hc|]. split; [exact Hw|]. split; [lia|]. split.
    + apply out_is_image_oev; [exact Ho|]. intros m Em. congruence.
    + (* commits may append frames, the file stays *)
      intros Hrd p. rewrite Hh, (oev_file_fixed s o (Hg Hrd)). apply (Hr Hrd).
Qed.

Lemma SInv_step st x sc s : SInv st (x :: sc) s -> SInv (next_stage st x) sc (sstep_exec s x).
Proof.
  intros [[Hx [Hg' Hsafe]] [Hg [HG F]]].
  split; [destruct x; exact Hsafe|]. split; [destruct x; exact Hg'|]. split; [destruct x; exact HG|].
  destruct x as [l|l| | |p]; cbn [next_stage sstep_exec] in *.
  - destruct st; exact F.
  - destruct st; exact F.
  - subst st. destruct F as [_ [Hw Ho]]. cbn. auto.
  - subst st. destruct F as [Hc [_ Ho]]. exists (s_pos s), (s_wal s). cbn [s_cpos s_cwal s_pos].
    split; [exact Hc|]. split; [reflexivity|]. split; [apply le_n|]. split; [apply out_is_image_nil, Ho|].
    (* the offsets are captured in the state in which the position was: reading through them gives what a connection
       sees now, the image of that position *)
    intros _ p. apply HG.
  - subst st. destruct F as [n [cw [Hc [Hw [Hle [Ho Hr]]]]]]. exists n, cw. cbn [s_cpos s_cwal s_pos].
    split; [exact Hc|]. split; [exact Hw|]. split; [exact Hle|]. split; [|intros _; exact (Hr eq_refl)].
    unfold out_is_image in *. cbn [s_cpos s_out s_hist]. rewrite Hc in *. rewrite Hw. intros p' q' Hin.
    apply in_app_or in Hin. destruct Hin as [Hin|[[= <- <-]|[]]]; [auto|]. apply (Hr eq_refl).
Qed.

Lemma exec_SInv sc : forall st rem s, SInv st rem s -> exists st', SInv st' (snd (exec s rem sc)) (fst (exec s rem sc)).
Proof.
  induction sc as [|e r IH]; intros st rem s H; cbn [exec]; [exists st; exact H|].
  destruct e as [|o].
  - destruct rem as [|x rest]; [apply (IH st), H|]. apply (IH (next_stage st x)), SInv_step, H.
  - apply (IH st), SInv_oev, H.
Qed.

Lemma safe_reads h ps : file_safe h ->
  safe Both h (reads ps ++ [SRelease SLCkpt; SRelease SLRead; SRelease SLShared]).
Proof.
  intros Hs. induction ps as [|p ps IH]; cbn.
  - repeat split; discriminate.
  - split; [reflexivity|]. split; [intros _; exact Hs|exact IH].
Qed.
Lemma safe_script_safe pages : safe Pre (fun _ => false) (safe_script pages).
Proof.
  unfold safe_script. cbn [app safe next_stage next_held guard].
  assert (Hs : file_safe (hupd (hupd (hupd (hupd (hupd (fun _ => false) SLShared true) SLWrite true) SLCkpt true) SLRead true) SLWrite false))
    by (split; [reflexivity|right; left; reflexivity]).
  repeat split; [cbn; auto ..|apply safe_reads, Hs].
Qed.

(* for every image, every schedule of other connections' commits and checkpoints and every point at which
   it is cut, whatever the reader has produced is the image of the position it captured *)
Theorem safe_handover_atomic pages img sc :
  out_is_image (fst (exec (init_sst img) (safe_script pages) sc)).
Proof.
  destruct (exec_SInv sc Pre (safe_script pages) (init_sst img)) as [st' H]; [|exact (SInv_out _ _ _ H)].
  split; [apply safe_script_safe|]. split; [exact I|]. split; [|cbn; auto]. intros p. reflexivity.
Qed.

(* while the reader g holds lock l (shared or exclusive), another owner's exclusive request on l is refused
   and changes nothing: this is what [oev_allowed] encodes *)
Lemma reader_lock_blocks_exclusive t l g h : TInv t -> gst (t l) g <> Unlocked -> h <> g ->
  exists t', t_trylock t l h = Some (false, t') /\ forall k, gst (t' l) k = gst (t l) k.
Proof.
  intros HT Hg Hne. destruct (trylock_blocked t l g h HT Hg Hne) as [t' [E S]].
  exists t'. split; [exact E|]. intros k. rewrite S. reflexivity.
Qed.

Definition pgA : pg := mkPg 1 0 false.
Definition pgB : pg := mkPg 2 0 false.
Definition bad_schedule : list sched :=
  [RStep; RStep; RStep; RStep; RStep;                  (* SHARED, WRITE, position, offsets, WRITE released *)
   REv (OWalCommit [(2, pgB)]); REv OCkpt;            (* the window: a commit, then a checkpoint *)
   RStep; RStep; RStep; RStep].                        (* CKPT, READ, read page 1, read page 2 *)
Lemma export_window_refuted :
  let s := fst (exec (init_sst (fun _ => pgA)) (export_script [1; 2]) bad_schedule) in
  s_cpos s = Some 0%nat /\ s_out s = [(1, pgA); (2, pgB)] /\ s_hist s 0%nat 2 = pgA /\ ~ out_is_image s.
Proof.
  cbn. repeat split. unfold out_is_image. cbn. intros H. specialize (H 2 pgB (or_intror (or_introl eq_refl))). discriminate H.
Qed.
(* the same schedule on the safe hand-over: the checkpoint is refused while the reader holds WRITE / READ *)
Lemma safe_on_bad_schedule :
  let s := fst (exec (init_sst (fun _ => pgA)) (safe_script [1; 2]) (bad_schedule ++ [RStep])) in
  s_out s = [(1, pgA); (2, pgA)].
Proof. reflexivity. Qed.
(* WriteSnapshotTo's self-check turns the mixture into an error *)
Lemma self_check_sound s n : s_cpos s = Some n -> self_check s = true ->
  forall p q, In (p, q) (s_out s) -> pg_h q = pg_h (s_hist s n p).
Proof.
  unfold self_check. intros -> H p q Hin. rewrite forallb_forall in H. specialize (H (p, q) Hin). apply N.eqb_eq in H. exact H.
Qed.
Lemma self_check_rejects_bad_schedule :
  self_check (fst (exec (init_sst (fun _ => pgA)) (export_script [1; 2]) bad_schedule)) = false.
Proof. reflexivity. Qed.

(* Tie A: the order of the model's [export_script] IS the order in which db.go Export takes its locks and
   captures (Gen/LockScriptsGen.v, regenerated on every run); WriteSnapshotTo is the same followed by the release
   of CKPT before the page loop *)
Lemma export_script_is_generated : abstract gen_export 0 = export_prefix.
Proof. reflexivity. Qed.
Lemma snapshot_script_is_generated : abstract gen_snapshot 0 = export_prefix ++ [SRelease SLCkpt].
Proof. reflexivity. Qed.
Lemma export_script_prefix pages : exists rest, export_script pages = export_prefix ++ rest.
Proof. eexists. reflexivity. Qed.

(* C05, WAL mode: every crash point of a WAL commit and of a checkpoint recovers to the image before or after. *)
From Coq Require Import NArith List Lia Arith.
Require Import LF.Model.PageDB LF.Model.Crash LF.Model.CrashWal LF.Proofs.CrashProofs.
Import ListNotations.
Local Open Scope N_scope.

Definition all_committed (fr : list wframe) : Prop := committed fr [] [] = fr.
Definition uncommitted (fr : list wframe) : Prop := forall f, In f fr -> w_commit f = 0.

Lemma committed_shift fr : forall acc cur, committed fr acc cur = acc ++ committed fr [] cur.
Proof.
  induction fr as [|f r IH]; intros acc cur; cbn [committed]; [rewrite app_nil_r; reflexivity|].
  destruct (w_commit f =? 0); [apply IH|].
  rewrite (IH (acc ++ cur ++ [f]) []), (IH ([] ++ cur ++ [f]) []). cbn [app]. rewrite <- !app_assoc. reflexivity.
Qed.
Lemma committed_acc fr : forall acc cur, exists rest, committed fr acc cur = acc ++ rest.
Proof. intros acc cur. exists (committed fr [] cur). apply committed_shift. Qed.
Lemma committed_uncommitted fr : uncommitted fr -> forall acc cur, committed fr acc cur = acc.
Proof.
  induction fr as [|f r IH]; intros H acc cur; cbn [committed]; [reflexivity|].
  rewrite (H f (or_introl eq_refl)), N.eqb_refl. apply IH. intros g Hg. apply H. right. exact Hg.
Qed.
Lemma committed_snoc c : w_commit c <> 0 -> forall l acc cur, committed (l ++ [c]) acc cur = acc ++ cur ++ l ++ [c].
Proof.
  intros Hc. induction l as [|f r IH]; intros acc cur; cbn [app committed].
  - destruct (N.eqb_spec (w_commit c) 0); [contradiction|]. reflexivity.
  - destruct (w_commit f =? 0); rewrite IH; rewrite <- ?app_assoc; reflexivity.
Qed.
Lemma committed_app_uncommitted part : uncommitted part -> forall l acc cur, committed (l ++ part) acc cur = committed l acc cur.
Proof.
  intros Hp. induction l as [|f r IH]; intros acc cur; cbn [app committed].
  - apply committed_uncommitted. exact Hp.
  - destruct (w_commit f =? 0); apply IH.
Qed.
Lemma committed_extend fr0 body c : w_commit c <> 0 -> all_committed (fr0 ++ body ++ [c]).
Proof. intros Hc. unfold all_committed. rewrite app_assoc, committed_snoc by exact Hc. reflexivity. Qed.
Lemma committed_partial fr0 part : all_committed fr0 -> uncommitted part -> committed (fr0 ++ part) [] [] = fr0.
Proof. intros H0 Hp. rewrite committed_app_uncommitted by exact Hp. exact H0. Qed.

Lemma last_commit_size_snoc fr c : w_commit c <> 0 -> last_commit_size (fr ++ [c]) = w_commit c.
Proof.
  intros Hc. unfold last_commit_size. rewrite fold_left_app. cbn [fold_left].
  destruct (N.eqb_spec (w_commit c) 0); [contradiction|reflexivity].
Qed.
Lemma frame_writes_app a b : frame_writes (a ++ b) = frame_writes a ++ frame_writes b.
Proof. unfold frame_writes. apply map_app. Qed.

Lemma checkpoint_db_eq db fr : fr <> [] -> all_committed fr ->
  checkpoint_db db fr = truncate (write_pages db (frame_writes fr)) (last_commit_size fr).
Proof. intros Hne Hc. unfold checkpoint_db. rewrite Hc. destruct fr; [contradiction|reflexivity]. Qed.
Lemma checkpoint_db_page db fr p : all_committed fr ->
  f_page (checkpoint_db db fr) p = f_page (write_pages db (frame_writes fr)) p.
Proof. intros Hc. unfold checkpoint_db. rewrite Hc. destruct fr; reflexivity. Qed.

Record WConsistent (d : wdisk) (img : file) (x0 : wltx) (sa0 : N) (fr0 : list wframe) : Prop := {
  wc_newest : wnewest d = Some x0;
  wc_wal : wd_wal d = Some (sa0, fr0);
  wc_committed : all_committed fr0;
  wc_view : same_image (checkpoint_db (wd_db d) fr0) img;        (* what a connection sees *)
  wc_reapply : same_image (truncate (write_pages img (l_pages (x_ltx x0))) (l_commit (x_ltx x0))) img;
  wc_end : sa0 = x_salt x0 -> x_end x0 = length fr0;             (* the log ends where the newest file says *)
  wc_fresh : sa0 <> x_salt x0 -> fr0 = []                        (* a log of a new generation has nothing yet *)
}.

Lemma wdisk_pos_newest d x : wnewest d = Some x -> wdisk_pos (wrecover d) = (l_max (x_ltx x), l_post (x_ltx x)).
Proof. intros Hn. change (wdisk_pos (wrecover d)) with (wdisk_pos d). unfold wdisk_pos. rewrite Hn. reflexivity. Qed.

(* Open gives [img] and d0's position back when [d] has d0's files and what Open checkpoints is what d0's connections see *)
Lemma wrecover_old d0 img x0 sa0 fr0 d : WConsistent d0 img x0 sa0 fr0 -> wd_ltx d = wd_ltx d0 ->
  same_image (match sync_wal d with Some (_, fr) => checkpoint_db (wd_db d) fr | None => wd_db d end) (checkpoint_db (wd_db d0) fr0) ->
  same_image (wd_db (wrecover d)) img /\ wdisk_pos (wrecover d) = wdisk_pos d0.
Proof.
  intros [Hn _ _ Hv Hr _ _] Hl H1.
  assert (wnewest d = Some x0) as Hn' by (unfold wnewest in *; rewrite Hl; exact Hn).
  split; [|rewrite (wdisk_pos_newest d x0 Hn'); unfold wdisk_pos; rewrite Hn; reflexivity].
  unfold wrecover. rewrite Hn'. cbn [wd_db]. eapply same_image_trans; [|exact Hr].
  apply reapply_same; [eapply same_image_trans; [exact H1|exact Hv]|]. destruct Hr as [Hs _]. exact Hs.
Qed.

(* ... so when the log has grown by [part]: Open cuts it back to the end of the newest file, or discards it if it is of
   another generation (then it held nothing); either way what is checkpointed is [fr0] *)
Lemma grown_log_recovers d0 img x0 sa0 fr0 d part : WConsistent d0 img x0 sa0 fr0 -> wd_ltx d = wd_ltx d0 ->
  wd_wal d = Some (sa0, fr0 ++ part) -> same_image (checkpoint_db (wd_db d) fr0) (checkpoint_db (wd_db d0) fr0) ->
  same_image (wd_db (wrecover d)) img /\ wdisk_pos (wrecover d) = wdisk_pos d0.
Proof.
  intros HC Hl Hw Hv. apply (wrecover_old d0 img x0 sa0 fr0 d HC Hl). destruct HC as [Hn _ _ _ _ He Hfr].
  unfold sync_wal, wnewest. rewrite Hl. unfold wnewest in Hn. rewrite Hn, Hw.
  destruct (N.eqb_spec sa0 (x_salt x0)) as [E|E].
  - rewrite (He E), firstn_app, firstn_all, Nat.sub_diag. cbn [firstn]. rewrite app_nil_r. exact Hv.
  - rewrite (Hfr E) in Hv |- *. exact Hv.
Qed.

Lemma wrun_frames d fs : forall sa fr, wd_wal d = Some (sa, fr) ->
  wrun d (map WFrame fs) = {| wd_db := wd_db d; wd_wal := Some (sa, fr ++ fs); wd_ltx := wd_ltx d |}.
Proof.
  revert d. induction fs as [|f r IH]; intros d sa fr Hw; cbn [map wrun fold_left].
  - rewrite app_nil_r, <- Hw. destruct d; reflexivity.
  - change (fold_left wstep_exec ?l ?x) with (wrun x l). rewrite (IH _ sa (fr ++ [f])).
    + cbn [wstep_exec wd_db wd_ltx]. rewrite <- app_assoc. reflexivity.
    + cbn [wstep_exec wd_wal]. rewrite Hw. reflexivity.
Qed.
Lemma wrun_app d a b : wrun d (a ++ b) = wrun (wrun d a) b.
Proof. unfold wrun. apply fold_left_app. Qed.

Section WalCommit.
  Variables (d0 : wdisk) (img0 : file) (x0 : wltx) (sa0 : N) (fr0 : list wframe).
  Variables (body : list wframe) (c : wframe) (f : ltxrec).
  Let frames := body ++ [c].
  Let n1 := w_commit c.
  Let img1 := truncate (write_pages img0 (frame_writes frames)) n1.
  Let x := {| x_ltx := f; x_salt := sa0; x_end := length fr0 + length frames |}.

  Hypothesis HC : WConsistent d0 img0 x0 sa0 fr0.
  Hypothesis Hbody : uncommitted body.
  Hypothesis Hcommit : n1 <> 0.
  Hypothesis Hf_commit : l_commit f = n1.
  (* C03: the transaction file applied to the previous image gives the new image; appended pages are written *)
  Hypothesis Hfile : same_image (truncate (write_pages img0 (l_pages f)) n1) img1.
  Hypothesis Hgrow : forall p, f_size img0 < p <= n1 -> lastw p (frame_writes frames) <> None.

  Lemma new_view : same_image (checkpoint_db (wd_db d0) (fr0 ++ frames)) img1.
  Proof.
    destruct HC as [_ _ Hc [Hvs Hvp] _ _ _].
    rewrite checkpoint_db_eq; [|unfold frames; destruct fr0, body; discriminate|apply committed_extend; exact Hcommit].
    assert (last_commit_size (fr0 ++ frames) = n1) as -> by (unfold frames; rewrite app_assoc; apply last_commit_size_snoc; exact Hcommit).
    split; [reflexivity|]. cbn [truncate f_size f_page img1]. intros p Hp.
    rewrite frame_writes_app, write_pages_app, !write_pages_page.
    destruct (lastw p (frame_writes frames)) as [q|] eqn:El; [reflexivity|].
    (* not written by the new transaction: a page of the old view *)
    destruct (N.le_gt_cases p (f_size img0)) as [Hle|Hgt]; [|exfalso; apply (Hgrow p); [lia|exact El]].
    rewrite <- (Hvp p) by (rewrite Hvs; lia). rewrite checkpoint_db_page by exact Hc. symmetry. apply write_pages_page.
  Qed.

  Theorem wal_commit_crash_atomic (k : nat) :
    let d := wrun d0 (firstn k (wal_tx_steps frames x)) in
    (same_image (wd_db (wrecover d)) img0 /\ wdisk_pos (wrecover d) = wdisk_pos d0) \/
    (same_image (wd_db (wrecover d)) img1 /\ wdisk_pos (wrecover d) = (l_max f, l_post f)).
  Proof using HC Hbody Hcommit Hf_commit Hfile Hgrow.
    intros d. pose proof (wc_wal _ _ _ _ _ HC) as Hw. unfold wal_tx_steps in d.
    destruct (firstn_app_cases (map WFrame frames) [WLtxRename x] k) as [E|[m E]].
    - (* some of the frames, perhaps all, but the file is not renamed: the log is cut back to where it was *)
      left. unfold d. rewrite E, firstn_map, (wrun_frames d0 _ sa0 fr0 Hw).
      apply (grown_log_recovers d0 img0 x0 sa0 fr0 _ (firstn k frames) HC); [reflexivity|reflexivity|apply same_image_refl].
    - right. cbn [firstn] in E. rewrite firstn_nil in E. unfold d. rewrite E, wrun_app, (wrun_frames d0 _ sa0 fr0 Hw). cbn [wrun fold_left wstep_exec wd_db wd_wal wd_ltx].
      set (dd := {| wd_db := wd_db d0; wd_wal := Some (sa0, fr0 ++ frames); wd_ltx := wd_ltx d0 ++ [x] |}).
      assert (wnewest dd = Some x) as Hn' by (unfold wnewest, dd; cbn [wd_ltx]; rewrite rev_app_distr; reflexivity).
      split; [|exact (wdisk_pos_newest dd x Hn')].
      unfold wrecover. rewrite Hn'. cbn [wd_db wd_ltx dd x_ltx x].
      assert (sync_wal dd = Some (sa0, fr0 ++ frames)) as Hsync.
      { unfold sync_wal. rewrite Hn'. cbn [wd_wal dd x_salt x_end x]. rewrite N.eqb_refl.
        rewrite firstn_all2; [reflexivity|rewrite app_length; lia]. }
      rewrite Hsync.
      rewrite Hf_commit. apply (reapply_fixes _ _ _ img0 img1 Hfile). intros p Hp _.
      destruct new_view as [HBs HBp]. apply HBp. rewrite HBs. exact Hp.
  Qed.
End WalCommit.

Lemma wrun_ckpt_pages d ps : wrun d (map (fun kv => WCkptPage (fst kv) (snd kv)) ps) =
  {| wd_db := write_pages (wd_db d) ps; wd_wal := wd_wal d; wd_ltx := wd_ltx d |}.
Proof.
  revert d. induction ps as [|[k q] r IH]; intros d; cbn [map wrun fold_left]; [destruct d; reflexivity|].
  change (fold_left wstep_exec ?l ?x) with (wrun x l). rewrite IH. cbn [wstep_exec wd_db wd_wal wd_ltx write_pages fold_left fst snd]. reflexivity.
Qed.

Section Checkpoint.
  Variables (d0 : wdisk) (img0 : file) (x0 : wltx) (sa0 : N) (fr0 : list wframe).
  Variables (pages : list (N * pg)) (restart : option N).
  Let view := checkpoint_db (wd_db d0) fr0.
  Let size := f_size view.

  Hypothesis HC : WConsistent d0 img0 x0 sa0 fr0.
  Hypothesis Hne : fr0 <> [].
  (* the checkpoint copies committed content: every copied page is what a connection sees for it, and every page
     the log overrides is copied *)
  Hypothesis Hsound : forall p q, In (p, q) pages -> f_page view p = q.
  Hypothesis Hcomplete : forall p, 1 <= p <= size -> lastw p (frame_writes fr0) <> None -> lastw p pages <> None.

  Lemma view_page p : f_page view p = match lastw p (frame_writes fr0) with Some q => q | None => f_page (wd_db d0) p end.
  Proof. unfold view. rewrite checkpoint_db_page by exact (wc_committed _ _ _ _ _ HC). apply write_pages_page. Qed.

  Lemma ckpt_over db' : (forall p, lastw p (frame_writes fr0) = None -> f_page db' p = f_page (wd_db d0) p) ->
    same_image (checkpoint_db db' fr0) view.
  Proof.
    intros H. destruct HC as [_ _ Hc _ _ _ _]. unfold view. rewrite !checkpoint_db_eq by assumption.
    split; [reflexivity|]. cbn [truncate f_size f_page]. intros p _. rewrite !write_pages_page.
    destruct (lastw p (frame_writes fr0)) eqn:El; [reflexivity|]. apply H. exact El.
  Qed.

  Lemma partial_copy_ok j p : lastw p (frame_writes fr0) = None ->
    f_page (write_pages (wd_db d0) (firstn j pages)) p = f_page (wd_db d0) p.
  Proof.
    intros El. rewrite write_pages_page. destruct (lastw p (firstn j pages)) as [q|] eqn:E; [|reflexivity].
    apply lastw_in in E. assert (In (p, q) pages) as Hin by (rewrite <- (firstn_skipn j pages); apply in_or_app; left; exact E).
    rewrite <- (Hsound p q Hin), view_page, El. reflexivity.
  Qed.

  Lemma full_copy_view : same_image (truncate (write_pages (wd_db d0) pages) size) view.
  Proof.
    split; [reflexivity|]. cbn [truncate f_size f_page]. intros p Hp. rewrite write_pages_page, view_page.
    destruct (lastw p pages) as [q|] eqn:Ep.
    - apply lastw_in in Ep. rewrite <- (Hsound p q Ep), view_page. reflexivity.
    - destruct (lastw p (frame_writes fr0)) eqn:El; [|reflexivity]. exfalso. apply (Hcomplete p Hp); [rewrite El; discriminate|exact Ep].
  Qed.

  Lemma copying_recovers db' : (forall p, lastw p (frame_writes fr0) = None -> f_page db' p = f_page (wd_db d0) p) ->
    let d := {| wd_db := db'; wd_wal := wd_wal d0; wd_ltx := wd_ltx d0 |} in
    same_image (wd_db (wrecover d)) img0 /\ wdisk_pos (wrecover d) = wdisk_pos d0.
  Proof.
    intros H d. apply (grown_log_recovers d0 img0 x0 sa0 fr0 d [] HC); [reflexivity| |apply ckpt_over; exact H].
    rewrite app_nil_r. exact (wc_wal _ _ _ _ _ HC).
  Qed.

  Theorem checkpoint_crash_safe (k : nat) :
    let d := wrun d0 (firstn k (ckpt_steps pages size restart)) in
    same_image (wd_db (wrecover d)) img0 /\ wdisk_pos (wrecover d) = wdisk_pos d0.
  Proof.
    intros d. unfold d, ckpt_steps. set (g := fun kv : N * pg => WCkptPage (fst kv) (snd kv)).
    destruct (firstn_app_cases (map g pages) ([WCkptTruncate size] ++ match restart with Some sa => [WRestart sa] | None => [] end) k)
      as [E|[m E]]; rewrite E.
    - rewrite firstn_map. unfold g. rewrite wrun_ckpt_pages. apply copying_recovers. intros p El. apply partial_copy_ok. exact El.
    - (* all pages copied and the file cut; perhaps the log restarted *)
      rewrite wrun_app. unfold g. rewrite wrun_ckpt_pages. cbn [app firstn wrun fold_left wstep_exec wd_db wd_wal wd_ltx].
      assert (forall p, lastw p (frame_writes fr0) = None ->
                f_page (truncate (write_pages (wd_db d0) pages) size) p = f_page (wd_db d0) p) as Hcut.
      { intros p El. pose proof (partial_copy_ok (length pages) p El) as H. rewrite firstn_all in H. exact H. }
      destruct restart as [sa|]; [destruct m|]; cbn [firstn]; rewrite ?firstn_nil; cbn [fold_left wstep_exec wd_db wd_wal wd_ltx];
        try (apply copying_recovers; exact Hcut).
      (* restarted: an empty log of a new generation *)
      apply (wrecover_old d0 img0 x0 sa0 fr0 _ HC); [reflexivity|]. destruct HC as [Hn _ _ _ _ _ _].
      unfold sync_wal, wnewest. cbn [wd_ltx wd_wal wd_db]. unfold wnewest in Hn. rewrite Hn.
      destruct (sa =? x_salt x0); [rewrite firstn_nil; cbn [checkpoint_db committed]|]; exact full_copy_view.
  Qed.
End Checkpoint.

Theorem wal_drop_crash_atomic (d0 : wdisk) (img0 : file) (x0 : wltx) (sa0 : N) (fr0 : list wframe) (x : wltx) (k : nat) :
  WConsistent d0 img0 x0 sa0 fr0 -> l_commit (x_ltx x) = 0 ->
  let d := wrun d0 (firstn k (wdrop_steps x)) in
  (same_image (wd_db (wrecover d)) img0 /\ wdisk_pos (wrecover d) = wdisk_pos d0) \/
  (f_size (wd_db (wrecover d)) = 0 /\ wd_wal (wrecover d) = None /\ wdisk_pos (wrecover d) = (l_max (x_ltx x), l_post (x_ltx x))).
Proof.
  intros HC Hc d.
  destruct k as [|k].
  - left. apply (grown_log_recovers d0 img0 x0 sa0 fr0 d0 [] HC); [reflexivity| |apply same_image_refl].
    rewrite app_nil_r. exact (wc_wal _ _ _ _ _ HC).
  - right.
    assert (wd_ltx d = wd_ltx d0 ++ [x]) as Hl.
    { unfold d, wdrop_steps. destruct k as [|[|k]]; cbn [firstn wrun fold_left wstep_exec wd_ltx];
        try rewrite firstn_nil; cbn [fold_left wd_ltx]; reflexivity. }
    assert (wnewest d = Some x) as Hn by (unfold wnewest; rewrite Hl, rev_app_distr; reflexivity).
    split; [|split; [reflexivity|exact (wdisk_pos_newest d x Hn)]].
    unfold wrecover. rewrite Hn. exact Hc.
Qed.

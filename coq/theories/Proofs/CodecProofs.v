(* C18: the stream decoders against their encoders. *)
From Coq Require Import NArith List Lia.
Require Import LF.Base.Bytes LF.Gen.ConstsGen LF.Model.Codec.
Import ListNotations.
Local Open Scope N_scope.

Lemma rd_ok_inv n s t s' : rd n s = ROk t s' -> concat s = t ++ concat s' /\ N.of_nat (length t) = n.
Proof.
  intros H. destruct (N.leb_spec n (N.of_nat (length (concat s)))) as [Hle|Hgt].
  - destruct (rd_enough n s Hle) as [s2 [E1 E2]]. rewrite E1 in H. inversion H; subst.
    rewrite E2, firstn_skipn. split; [reflexivity|]. rewrite firstn_length. lia.
  - rewrite rd_short in H by assumption. destruct (concat s); discriminate.
Qed.

Lemma app_cut_length {A} (a p l : list A) : a = p ++ l -> l <> [] -> (length p < length a)%nat.
Proof. intros -> Hl. rewrite app_length. destruct l; [congruence|]. cbn [length]. lia. Qed.

(* integers of w bytes; the width is the numeral the decoders pass to [rd_be] *)
Lemma rd_be_app w v s b : concat s = be (N.to_nat w) v ++ b -> v < 256 ^ w ->
  exists s', rd_be w s = ROk v s' /\ concat s' = b.
Proof.
  intros Hc Hv. destruct (rd_app w s _ b Hc) as [s' [E1 E2]]; [rewrite be_length; apply N2Nat.id|].
  exists s'. unfold rd_be. rewrite E1, of_be_be by (rewrite N2Nat.id; exact Hv). auto.
Qed.

Lemma rd_be_ok_inv w v s s' : bytes_ok (concat s) -> rd_be w s = ROk v s' ->
  concat s = be (N.to_nat w) v ++ concat s' /\ v < 256 ^ w.
Proof.
  intros Hok H. unfold rd_be in H. destruct (rd w s) as [t s2| |] eqn:E; try discriminate.
  injection H as <- <-. apply rd_ok_inv in E. destruct E as [Hc <-].
  rewrite Hc in Hok. apply Forall_app in Hok. rewrite Nat2N.id. split; [|apply of_be_lt; tauto].
  rewrite Hc. f_equal. symmetry. apply be_of_be. tauto.
Qed.

Lemma rd_be_cut w v s p l : be (N.to_nat w) v = p ++ l -> l <> [] -> concat s = p ->
  rd_be w s = match p with [] => REOF | _ => RUnexpected end.
Proof.
  intros He Hl Hc. pose proof (app_cut_length _ _ _ He Hl) as H. rewrite be_length in H.
  unfold rd_be. rewrite rd_short by (rewrite Hc; lia). rewrite Hc. destruct p; reflexivity.
Qed.

Lemma avail_rd n s t s' : rd n s = ROk t s' -> avail s = n + avail s'.
Proof.
  intros H. apply rd_ok_inv in H. destruct H as [Hc Hl]. unfold avail. rewrite Hc, app_length. lia.
Qed.
Lemma avail_rd_be n s v s' : rd_be n s = ROk v s' -> avail s = n + avail s'.
Proof.
  unfold rd_be. destruct (rd n s) as [t s2| |] eqn:E; try discriminate.
  intros H; inversion H; subst. eapply avail_rd; eassumption.
Qed.

Lemma app_split {A} (a b p q : list A) : a ++ b = p ++ q ->
  (exists l, p = a ++ l /\ b = l ++ q) \/ (exists l, l <> [] /\ a = p ++ l /\ q = l ++ b).
Proof.
  intros H. destruct (app_eq_app _ _ _ _ H) as [[|x l] [[Ha Hq]|[Hp Hb]]].
  - left. exists []. rewrite app_nil_r in *. subst. auto.
  - left. exists []. rewrite app_nil_r in *. subst. auto.
  - right. exists (x :: l). split; [discriminate|auto].
  - left. exists (x :: l). auto.
Qed.

(* [decode_fields] (Model/Codec.v) read as a sequence of single-field decoders that pass errors on: [lift], [bind] and
   [decode_field] restate its body, and [decode_fields_cons] is what ties them to it. *)
Definition is_short (raw : bool) {A} (r : dres A) : Prop :=
  r = DUnexpected \/ (raw = true /\ r = DEOF).

(* a read inside a value: what was read, or the short read reported *)
Definition lift {A} (raw : bool) (r : rres A) : dres A :=
  match r with ROk v s => DOk v s | e => short_err raw e end.
Lemma lift_short raw {A} (r : rres A) : (forall v s, r <> ROk v s) -> is_short raw (lift raw r).
Proof.
  intros H. destruct r as [v s| |]; [exfalso; eapply H; reflexivity| |]; cbn.
  - destruct raw; [right; auto|left; reflexivity].
  - left; reflexivity.
Qed.

Definition bind {A B} (r : dres A) (k : A -> stream -> dres B) : dres B :=
  match r with DOk v s => k v s | DEOF => DEOF | DUnexpected => DUnexpected | DInvalid => DInvalid end.
Lemma bind_short raw {A B} (r : dres A) (k : A -> stream -> dres B) : is_short raw r -> is_short raw (bind r k).
Proof. intros [->|[H ->]]; [left|right]; auto. Qed.

(* [dec] reads [e] as [v]: ahead of any tail it consumes exactly [e] and returns [v]; given a proper prefix of [e] and
   nothing more, it reports a short read: the round trip and the prefix error of a decoder are the two halves of this. *)
Definition reads (raw : bool) {A} (dec : stream -> dres A) (e : list byte) (v : A) : Prop :=
  (forall s tail, concat s = e ++ tail -> exists s', dec s = DOk v s' /\ concat s' = tail) /\
  (forall s p l, e = p ++ l -> l <> [] -> concat s = p -> is_short raw (dec s)).

Lemma reads_ret raw {A} (v : A) : reads raw (DOk v) [] v.
Proof.
  split.
  - intros s tail Hc. exists s. split; [reflexivity|exact Hc].
  - intros s p l He Hl _. symmetry in He. apply app_eq_nil in He. tauto.
Qed.

(* one value after another; the one place where it matters in which value the cut falls *)
Lemma reads_bind raw {A B} (d : stream -> dres A) (k : A -> stream -> dres B) e1 v1 e2 v2 :
  reads raw d e1 v1 -> reads raw (k v1) e2 v2 -> reads raw (fun s => bind (d s) k) (e1 ++ e2) v2.
Proof.
  intros [H1 C1] [H2 C2]. split.
  - intros s tail Hc. rewrite <- app_assoc in Hc. destruct (H1 s _ Hc) as [s1 [-> E1]]. exact (H2 s1 tail E1).
  - intros s p l He Hl Hc. destruct (app_split _ _ _ _ He) as [[l1 [Hp Hr]]|[l1 [Hl1 [Ha _]]]].
    + (* the first value is there: it decodes, the rest is cut *)
      rewrite Hp in Hc. destruct (H1 s l1 Hc) as [s1 [-> E1]]. exact (C2 s1 l1 l Hr Hl E1).
    + apply bind_short. exact (C1 s p l1 Ha Hl1 Hc).
Qed.
Lemma reads_map raw {A B} (f : A -> B) (d : stream -> dres A) e v :
  reads raw d e v -> reads raw (fun s => bind (d s) (fun x s' => DOk (f x) s')) e (f v).
Proof. intros H. rewrite <- (app_nil_r e). apply reads_bind with v; [exact H|apply reads_ret]. Qed.
Lemma reads_ext raw {A} (d d' : stream -> dres A) e v : (forall s, d s = d' s) -> reads raw d' e v -> reads raw d e v.
Proof. intros E [H C]. split; [intros s|intros s p l]; rewrite E; [apply H|apply C]. Qed.

Lemma reads_rd raw a : reads raw (fun s => lift raw (rd (N.of_nat (length a)) s)) a a.
Proof.
  split.
  - intros s tail Hc. destruct (rd_app _ s a tail Hc eq_refl) as [s' [-> E]]. exists s'. split; [reflexivity|exact E].
  - intros s p l He Hl Hc. pose proof (app_cut_length a p l He Hl). rewrite rd_short by (rewrite Hc; lia).
    apply lift_short. destruct (concat s); discriminate.
Qed.
Lemma reads_rd_be raw w v : v < 256 ^ w -> reads raw (fun s => lift raw (rd_be w s)) (be (N.to_nat w) v) v.
Proof.
  intros Hv. split.
  - intros s tail Hc. destruct (rd_be_app w v s tail Hc Hv) as [s' [-> E]]. exists s'. split; [reflexivity|exact E].
  - intros s p l He Hl Hc. rewrite (rd_be_cut w v s p l He Hl Hc). apply lift_short. destruct p; discriminate.
Qed.

Definition rd_int (raw : bool) (w : N) (s : stream) : dres fval :=
  bind (lift raw (rd_be w s)) (fun n s' => DOk (VInt n) s').
Definition rd_bytes (raw : bool) (s : stream) : dres fval :=
  bind (lift raw (rd_be 4 s)) (fun n s1 => bind (lift raw (rd n s1)) (fun b s2 => DOk (VBytes b) s2)).
Definition decode_field (raw : bool) (f : field) : stream -> dres fval :=
  match f with FU32 => rd_int raw 4 | FU64 => rd_int raw 8 | FBytes => rd_bytes raw end.

Lemma decode_fields_cons raw f lay s : decode_fields raw (f :: lay) s =
  bind (decode_field raw f s) (fun v s' => bind (decode_fields raw lay s') (fun vs s'' => DOk (v :: vs) s'')).
Proof.
  cbn [decode_fields]. destruct f; cbn [decode_field]; unfold rd_int, rd_bytes, lift, bind.
  - destruct (rd_be 4 s); try reflexivity; destruct raw; reflexivity.
  - destruct (rd_be 8 s); try reflexivity; destruct raw; reflexivity.
  - destruct (rd_be 4 s) as [n s1| |]; [destruct (rd n s1)| |]; try reflexivity; destruct raw; reflexivity.
Qed.

Lemma decode_field_reads raw f v : wf_val f v -> reads raw (decode_field raw f) (encode_field f v) v.
Proof.
  destruct f, v; cbn [wf_val encode_field decode_field]; try contradiction; intros Hv.
  - apply (reads_map raw VInt), (reads_rd_be raw 4), Hv.
  - apply (reads_map raw VInt), (reads_rd_be raw 8), Hv.
  - (* the length, then as many bytes as it says *)
    apply reads_bind with (N.of_nat (length b)); [apply (reads_rd_be raw 4), Hv|]. apply (reads_map raw VBytes), reads_rd.
Qed.

Lemma decode_fields_reads raw : forall lay vs, wf_vals lay vs -> reads raw (decode_fields raw lay) (encode_fields lay vs) vs.
Proof.
  induction lay as [|f lay IH]; intros [|v vs] Hwf; try contradiction.
  - apply reads_ret.
  - destruct Hwf as [Hv Hvs]. apply (reads_ext raw _ _ _ _ (decode_fields_cons raw f lay)).
    apply reads_bind with v; [exact (decode_field_reads raw f v Hv)|]. apply (reads_map raw (cons v)), IH, Hvs.
Qed.

Lemma rd_int_sound raw w s v s' : bytes_ok (concat s) -> rd_int raw w s = DOk v s' ->
  exists n, v = VInt n /\ concat s = be (N.to_nat w) n ++ concat s' /\ n < 256 ^ w.
Proof.
  intros Hok. unfold rd_int, lift, bind. destruct (rd_be w s) as [n s1| |] eqn:E; [|destruct raw; discriminate..].
  intros H. injection H as <- <-. exists n. split; [reflexivity|]. exact (rd_be_ok_inv w n s s1 Hok E).
Qed.
Lemma rd_bytes_sound raw s v s' : bytes_ok (concat s) -> rd_bytes raw s = DOk v s' ->
  exists b, v = VBytes b /\ concat s = (be 4 (N.of_nat (length b)) ++ b) ++ concat s' /\ N.of_nat (length b) < 2 ^ 32 /\ bytes_ok b.
Proof.
  intros Hok. unfold rd_bytes, lift, bind. destruct (rd_be 4 s) as [n s1| |] eqn:E; [|destruct raw; discriminate..].
  destruct (rd_be_ok_inv 4 n s s1 Hok E) as [Hc Hn]. rewrite Hc in Hok. apply Forall_app in Hok. destruct Hok as [_ Hok1].
  destruct (rd n s1) as [b s2| |] eqn:E1; [|destruct raw; discriminate..].
  destruct (rd_ok_inv n s1 b s2 E1) as [Hc1 <-]. rewrite Hc1 in Hok1. apply Forall_app in Hok1.
  intros H. injection H as <- <-. exists b. rewrite Hc, Hc1, <- app_assoc. tauto.
Qed.

Lemma decode_field_sound raw f s v s' : bytes_ok (concat s) -> decode_field raw f s = DOk v s' ->
  concat s = encode_field f v ++ concat s' /\ wf_val f v.
Proof.
  intros Hok H. destruct f; cbn [decode_field] in H.
  - destruct (rd_int_sound raw 4 s v s' Hok H) as [n [-> [Hc Hn]]]. split; assumption.
  - destruct (rd_int_sound raw 8 s v s' Hok H) as [n [-> [Hc Hn]]]. split; assumption.
  - destruct (rd_bytes_sound raw s v s' Hok H) as [b [-> [Hc Hn]]]. split; assumption.
Qed.

Lemma decode_fields_sound raw : forall lay s vs s',
  bytes_ok (concat s) -> decode_fields raw lay s = DOk vs s' ->
  concat s = encode_fields lay vs ++ concat s' /\ wf_vals lay vs.
Proof.
  induction lay as [|f lay IH]; intros s vs s' Hok H.
  - injection H as <- <-. cbn. auto.
  - rewrite decode_fields_cons in H. destruct (decode_field raw f s) as [v s1| | |] eqn:E; try discriminate H.
    cbn [bind] in H. destruct (decode_fields raw lay s1) as [vs1 s2| | |] eqn:E2; try discriminate H.
    injection H as <- <-. destruct (decode_field_sound raw f s v s1 Hok E) as [Hc Hv].
    rewrite Hc in Hok. apply Forall_app in Hok. destruct (IH s1 vs1 s2 (proj2 Hok) E2) as [Hc1 Hw1].
    split; [|split; assumption]. cbn [encode_fields]. rewrite Hc, Hc1, app_assoc. reflexivity.
Qed.

Lemma layout_of_some typ lay : layout_of typ = Some lay -> typ < 256 ^ 4 /\ (length lay <= 2)%nat.
Proof.
  unfold layout_of. intros H.
  repeat match type of H with
  | (if ?a =? ?b then _ else _) = _ =>
    destruct (N.eqb_spec a b) as [->|_]; [injection H as <-; split; [vm_compute; reflexivity|cbn [length]; lia]|]
  end. discriminate.
Qed.
Lemma frame_roundtrip typ lay vs s tail :
  layout_of typ = Some lay -> wf_vals lay vs -> concat s = encode_frame typ vs ++ tail ->
  exists s', decode_frame s = DOk (typ, vs) s' /\ concat s' = tail.
Proof.
  intros Hl Hwf Hc. unfold encode_frame in Hc. rewrite Hl, <- app_assoc in Hc.
  unfold decode_frame. destruct (rd_be_app 4 typ s _ Hc (proj1 (layout_of_some typ lay Hl))) as [s1 [-> E2]].
  rewrite Hl. destruct (proj1 (decode_fields_reads false lay vs Hwf) s1 tail E2) as [s2 [-> E4]]. eauto.
Qed.

Lemma frame_prefix typ lay vs s p q :
  layout_of typ = Some lay -> wf_vals lay vs -> encode_frame typ vs = p ++ q -> q <> [] -> concat s = p ->
  decode_frame s = match p with [] => DEOF | _ => DUnexpected end.
Proof.
  intros Hl Hwf He Hq Hc. unfold encode_frame in He. rewrite Hl in He.
  unfold decode_frame.
  destruct (app_split _ _ _ _ He) as [[l [Hp Hr]]|[l [Hln [Ha _]]]].
  - rewrite Hp in Hc |- *. destruct (rd_be_app 4 typ s l Hc (proj1 (layout_of_some typ lay Hl))) as [s1 [-> E2]]. rewrite Hl.
    destruct (proj2 (decode_fields_reads false lay vs Hwf) s1 l q Hr Hq E2) as [->|[H _]]; [|discriminate].
    pose proof (be_length 4 typ). destruct (be 4 typ); [discriminate|reflexivity].
  - rewrite (rd_be_cut 4 typ s p l Ha Hln Hc). destruct p; reflexivity.
Qed.

Lemma frame_sound s typ vs s' :
  bytes_ok (concat s) -> decode_frame s = DOk (typ, vs) s' ->
  concat s = encode_frame typ vs ++ concat s' /\ exists lay, layout_of typ = Some lay /\ wf_vals lay vs.
Proof.
  intros Hok H. unfold decode_frame in H.
  destruct (rd_be 4 s) as [t s1| |] eqn:E; try discriminate.
  destruct (rd_be_ok_inv 4 t s s1 Hok E) as [Hc Ht].
  destruct (layout_of t) as [lay|] eqn:El; [|discriminate].
  destruct (decode_fields false lay s1) as [vs1 s2| | |] eqn:E2; try discriminate.
  injection H as <- <- <-. rewrite Hc in Hok. apply Forall_app in Hok.
  destruct (decode_fields_sound false lay s1 vs1 s2 (proj2 Hok) E2) as [Hc1 Hw].
  split; [|eauto]. unfold encode_frame. rewrite El, Hc, Hc1, app_assoc. reflexivity.
Qed.

(* a field costs at most its 4 length bytes, the 512 bytes bytes.Buffer starts with under io.CopyN, and twice the bytes
   received: 516, rounded up to 520 *)
Lemma alloc_fields_bound : forall lay s,
  alloc_fields false lay s <= 520 * N.of_nat (length lay) + 2 * avail s.
Proof.
  induction lay as [|f lay IH]; intros s; cbn [alloc_fields length]; [lia|].
  destruct f.
  - destruct (rd_be 4 s) as [n s1| |] eqn:E; try lia.
    specialize (IH s1). apply avail_rd_be in E. lia.
  - destruct (rd_be 8 s) as [n s1| |] eqn:E; try lia.
    specialize (IH s1). apply avail_rd_be in E. lia.
  - destruct (rd_be 4 s) as [n s1| |] eqn:E; try lia.
    apply avail_rd_be in E.
    destruct (rd n s1) as [b s2| |] eqn:E1.
    + specialize (IH s2). apply avail_rd in E1. lia.
    + lia.
    + lia.
Qed.

(* 1044 = the 4 bytes of the frame type + 520 for each of the at most two fields of a layout *)
Lemma alloc_frame_bound s : alloc_frame false s <= 1044 + 2 * avail s.
Proof.
  unfold alloc_frame. destruct (rd_be 4 s) as [t s1| |] eqn:E; try lia.
  destruct (layout_of t) as [lay|] eqn:El; [|lia].
  pose proof (alloc_fields_bound lay s1). pose proof (proj2 (layout_of_some t lay El)).
  apply avail_rd_be in E. lia.
Qed.

Lemma pos_enc_nonempty e : wf_vals pos_layout e -> (1 <= length (encode_fields pos_layout e))%nat.
Proof.
  unfold pos_layout. destruct e as [|v e]; [intros []|]. intros [Hv _].
  destruct v; cbn [wf_val] in Hv; try contradiction.
  cbn [encode_fields encode_field]. rewrite !app_length, be_length. lia.
Qed.

Lemma posents_len m : Forall (wf_vals pos_layout) m ->
  (length m <= length (concat (map (encode_fields pos_layout) m)))%nat.
Proof.
  induction 1 as [|e m He Hm IH]; cbn [map concat length]; [lia|].
  rewrite app_length. pose proof (pos_enc_nonempty e He). lia.
Qed.

(* the entry loop without its fuel *)
Fixpoint posents (n : nat) (s : stream) : dres (list posent) :=
  match n with
  | O => DOk [] s
  | S n' => bind (decode_fields true pos_layout s) (fun e s' => bind (posents n' s') (fun es s'' => DOk (e :: es) s''))
  end.
Lemma posents_reads m : Forall (wf_vals pos_layout) m ->
  reads true (posents (length m)) (concat (map (encode_fields pos_layout) m)) m.
Proof.
  induction 1 as [|e m He _ IH]; [apply reads_ret|]. cbn [length map concat].
  apply (reads_bind true (decode_fields true pos_layout) _ _ e); [exact (decode_fields_reads true pos_layout e He)|].
  apply (reads_map true (cons e)), IH.
Qed.
(* running out of fuel is the only difference, and it is reported as end of input *)
Lemma decode_posents_fuel : forall fuel n s,
  decode_posents fuel (N.of_nat n) s = posents n s \/ (decode_posents fuel (N.of_nat n) s = DEOF /\ (fuel < n)%nat).
Proof.
  induction fuel as [|fuel IH]; intros [|n] s.
  - left. reflexivity.
  - right. split; [reflexivity|lia].
  - left. reflexivity.
  - cbn [decode_posents posents]. destruct (N.eqb_spec (N.of_nat (S n)) 0) as [E|_]; [lia|].
    replace (N.of_nat (S n) - 1) with (N.of_nat n) by lia.
    destruct (decode_fields true pos_layout s) as [e s'| | |]; try (left; reflexivity). cbn [bind].
    destruct (IH n s') as [->|[-> Hlt]]; [left; reflexivity|right; split; [reflexivity|lia]].
Qed.

Definition is_err {A} (r : dres A) : Prop := forall v s, r <> DOk v s.

Lemma is_short_err raw {A} (r : dres A) : is_short raw r -> is_err r.
Proof. intros [H|[_ H]] v s; subst; discriminate. Qed.

Lemma posmap_reads m : Forall (wf_vals pos_layout) m -> N.of_nat (length m) < 2 ^ 32 ->
  reads true decode_posmap (encode_posmap m) m.
Proof.
  intros Hwf Hn. pose proof (posents_reads m Hwf) as [H C].
  apply (reads_ext true _ (fun s => bind (lift true (rd_be 4 s)) (fun n s1 => decode_posents (S (length (concat s1))) n s1))).
  { intros s. unfold decode_posmap. destruct (rd_be 4 s); reflexivity. }
  apply reads_bind with (N.of_nat (length m)); [exact (reads_rd_be true 4 _ Hn)|]. split.
  - intros s tail Hc. destruct (decode_posents_fuel (S (length (concat s))) (length m) s) as [->|[_ Hlt]]; [exact (H s tail Hc)|].
    rewrite Hc, app_length in Hlt. pose proof (posents_len m Hwf). lia.
  - intros s p l He Hl Hc. destruct (decode_posents_fuel (S (length (concat s))) (length m) s) as [->|[-> _]]; [exact (C s p l He Hl Hc)|].
    right. split; reflexivity.
Qed.

Lemma posmap_roundtrip m s tail :
  Forall (wf_vals pos_layout) m -> N.of_nat (length m) < 2 ^ 32 ->
  concat s = encode_posmap m ++ tail ->
  exists s', decode_posmap s = DOk m s' /\ concat s' = tail.
Proof. intros Hwf Hn. exact (proj1 (posmap_reads m Hwf Hn) s tail). Qed.

Lemma posmap_prefix m s p q :
  Forall (wf_vals pos_layout) m -> N.of_nat (length m) < 2 ^ 32 ->
  encode_posmap m = p ++ q -> q <> [] -> concat s = p -> is_err (decode_posmap s).
Proof. intros Hwf Hn He Hq Hc. exact (is_short_err true _ (proj2 (posmap_reads m Hwf Hn) s p q He Hq Hc)). Qed.

Lemma chunk_max_lt : c_chunk_MaxChunkSize < 2 ^ 16.
Proof. vm_compute. reflexivity. Qed.
Lemma chunk_max_pos : 0 < c_chunk_MaxChunkSize.
Proof. vm_compute. reflexivity. Qed.
Lemma chunk_eof_zero : c_chunk_EOF = 0.
Proof. vm_compute. reflexivity. Qed.

Definition chunk_ok (c : list byte) : Prop := 1 <= N.of_nat (length c) <= c_chunk_MaxChunkSize.
Definition enc_chunks (cs : list (list byte)) : list byte :=
  concat (map (fun c => be 2 (N.of_nat (length c)) ++ c) cs).

Lemma chunk_ok_size c : chunk_ok c -> N.of_nat (length c) < 2 ^ 16 /\ (N.of_nat (length c) =? c_chunk_EOF) = false.
Proof. unfold chunk_ok. pose proof chunk_max_lt as Hm. rewrite chunk_eof_zero. intros H. split; [|apply N.eqb_neq]; lia. Qed.

Lemma split_chunks_ok : forall fuel p, Forall chunk_ok (split_chunks fuel p).
Proof.
  induction fuel as [|fuel IH]; intros p; cbn [split_chunks]; [constructor|].
  destruct p as [|x p]; [constructor|]. constructor; [|apply IH].
  unfold chunk_ok. rewrite firstn_length. pose proof chunk_max_pos. cbn [length]. lia.
Qed.

Lemma split_chunks_concat : forall fuel p, (length p < fuel)%nat -> concat (split_chunks fuel p) = p.
Proof.
  induction fuel as [|fuel IH]; intros p Hf; [lia|]. cbn [split_chunks].
  destruct p as [|x p]; [reflexivity|]. cbn [concat]. rewrite IH.
  - apply firstn_skipn.
  - rewrite skipn_length. pose proof chunk_max_pos. cbn [length] in *. lia.
Qed.

Lemma enc_chunks_app a b : enc_chunks (a ++ b) = enc_chunks a ++ enc_chunks b.
Proof. unfold enc_chunks. rewrite map_app, concat_app. reflexivity. Qed.

Lemma chunk_write_enc ws : exists cs, chunk_write ws = enc_chunks cs /\ Forall chunk_ok cs /\ concat cs = concat ws.
Proof.
  induction ws as [|w ws [cs [E [Hok Hc]]]].
  - exists []. cbn. auto.
  - exists (split_chunks (S (length w)) w ++ cs). unfold chunk_write in *. cbn [map concat].
    change (chunk_write_one w) with (enc_chunks (split_chunks (S (length w)) w)). rewrite E, enc_chunks_app. split; [reflexivity|]. split.
    + apply Forall_app. split; [apply split_chunks_ok|assumption].
    + rewrite concat_app, split_chunks_concat by lia. rewrite Hc. reflexivity.
Qed.

Lemma chunk_read_rt em : forall cs fuel s tail,
  Forall chunk_ok cs -> (length cs < fuel)%nat ->
  concat s = enc_chunks cs ++ chunk_close ++ tail ->
  exists s', chunk_read em fuel s = (concat cs, CClean s') /\ concat s' = tail.
Proof.
  induction cs as [|c cs IH]; intros fuel s tail Hok Hf Hc; (destruct fuel as [|fuel]; [lia|]); cbn [chunk_read].
  - cbn [enc_chunks map concat app] in Hc. unfold chunk_close in Hc.
    destruct (rd_be_app 2 c_chunk_EOF s tail Hc) as [s1 [-> E2]]; [rewrite chunk_eof_zero; reflexivity|].
    rewrite N.eqb_refl. exists s1. auto.
  - inversion_clear Hok as [|? ? Hc1 Hcs]. destruct (chunk_ok_size c Hc1) as [Hlt Hne].
    unfold enc_chunks in Hc. cbn [map concat] in Hc. rewrite <- !app_assoc in Hc.
    destruct (rd_be_app 2 _ s _ Hc Hlt) as [s1 [-> E2]]. rewrite Hne.
    destruct (rd_app (N.of_nat (length c)) s1 c _ E2 eq_refl) as [s2 [-> E4]].
    destruct (IH fuel s2 tail Hcs) as [s3 [-> E6]]; [cbn in Hf; lia|exact E4|].
    exists s3. cbn [concat]. auto.
Qed.

Lemma chunk_roundtrip ws s tail :
  concat s = chunk_write ws ++ chunk_close ++ tail ->
  exists s', chunk_read_all true s = (concat ws, CClean s') /\ concat s' = tail.
Proof.
  intros Hc. destruct (chunk_write_enc ws) as [cs [E [Hok Hcc]]]. rewrite E in Hc.
  unfold chunk_read_all. rewrite <- Hcc. apply chunk_read_rt; [assumption| |assumption].
  rewrite Hc, !app_length.
  assert (length cs <= length (enc_chunks cs))%nat as HL.
  { clear -Hok. induction Hok as [|c cs Hc Hcs IH]; [cbn; lia|].
    unfold enc_chunks in *. cbn [map concat length]. rewrite !app_length, be_length. lia. }
  lia.
Qed.

Lemma chunk_read_prefix : forall cs fuel s p q,
  Forall chunk_ok cs -> enc_chunks cs ++ chunk_close = p ++ q -> q <> [] -> concat s = p ->
  snd (chunk_read true fuel s) = CUnexpected.
Proof.
  induction cs as [|c cs IH]; intros fuel s p q Hok He Hq Hc; (destruct fuel as [|fuel]; [reflexivity|]); cbn [chunk_read].
  - cbn [enc_chunks map concat app] in He. unfold chunk_close in He.
    rewrite (rd_be_cut 2 _ s p q He Hq Hc). destruct p; reflexivity.
  - inversion_clear Hok as [|? ? Hc1 Hcs]. destruct (chunk_ok_size c Hc1) as [Hlt Hne].
    unfold enc_chunks in He. cbn [map concat] in He. rewrite <- !app_assoc in He.
    destruct (app_split _ _ _ _ He) as [[l [Hp Hr]]|[l [Hl [Ha _]]]].
    + rewrite Hp in Hc. destruct (rd_be_app 2 _ s l Hc Hlt) as [s1 [-> E2]]. rewrite Hne.
      destruct (app_split _ _ _ _ Hr) as [[l2 [Hp2 Hr2]]|[l2 [Hl2 [Ha2 _]]]].
      * rewrite Hp2 in E2. destruct (rd_app (N.of_nat (length c)) s1 c l2 E2 eq_refl) as [s2 [-> E4]].
        specialize (IH fuel s2 l2 q Hcs Hr2 Hq E4).
        destruct (chunk_read true fuel s2) as [d e]. exact IH.
      * 
        pose proof (app_cut_length c l l2 Ha2 Hl2). rewrite rd_short by (rewrite E2; lia). destruct (concat s1); reflexivity.
    + rewrite (rd_be_cut 2 _ s p l Ha Hl Hc). destruct p; reflexivity.
Qed.

Lemma chunk_prefix ws s p q :
  chunk_write ws ++ chunk_close = p ++ q -> q <> [] -> concat s = p ->
  snd (chunk_read_all true s) = CUnexpected.
Proof.
  intros He Hq Hc. destruct (chunk_write_enc ws) as [cs [E [Hok _]]]. rewrite E in He.
  unfold chunk_read_all. eapply chunk_read_prefix; eassumption.
Qed.

Lemma read_full_at_ok file n off b :
  read_full_at file n off = RFAOk b <->
  (n <= N.of_nat (length (skipn (N.to_nat off) file)) /\ b = firstn (N.to_nat n) (skipn (N.to_nat off) file)).
Proof.
  unfold read_full_at. destruct (N.leb_spec n (N.of_nat (length (skipn (N.to_nat off) file)))) as [H|H].
  - split; [intros E; inversion E; auto|intros [_ ->]; reflexivity].
  - split; [destruct (skipn (N.to_nat off) file); discriminate|intros [H' _]; lia].
Qed.

(* C13: write forwarding under a halt lock.  The primary's log is a linked chain and both replicas hold a suffix of it
   ([Inv]); every event leaves the logs alone or appends one linked entry to the primary's ([step_moves_logs]), and the
   stream brings each follower one entry closer per round ([pull]). *)
From Coq Require Import NArith List Bool Lia.
Require Import LF.Base.RWBase LF.Model.Locks LF.Proofs.LocksProofs.
Require Import LF.Model.Halt.
Import ListNotations.
Local Open Scope N_scope.

Fixpoint chain (l : log) : Prop :=
  match l with [] => True | e :: r => extends r e = true /\ chain r end.
Definition suffix (a b : log) : Prop := exists x, b = x ++ a.

Lemma extends_spec l e : extends l e = true <-> e_txid e = fst (pos_of l) + 1 /\ e_pre e = snd (pos_of l).
Proof. unfold extends. rewrite andb_true_iff, !N.eqb_eq. tauto. Qed.
Lemma next_entry_extends l post node : extends l (next_entry l post node) = true.
Proof. apply extends_spec. split; reflexivity. Qed.

Lemma chain_len l : chain l -> fst (pos_of l) = N.of_nat (length l).
Proof.
  induction l as [|e r IH]; cbn [chain pos_of length fst]; [reflexivity|].
  intros [He Hr]. apply extends_spec in He. destruct He as [Ht _]. rewrite Ht, (IH Hr). lia.
Qed.

Lemma suffix_refl a : suffix a a. Proof. exists []. reflexivity. Qed.
Lemma suffix_cons a b e : suffix a b -> suffix a (e :: b).
Proof. intros [x ->]. exists (e :: x). reflexivity. Qed.
Lemma suffix_both a e : suffix (e :: a) (e :: a). Proof. apply suffix_refl. Qed.
Lemma suffix_len a b : suffix a b -> (length a <= length b)%nat.
Proof. intros [x ->]. rewrite app_length. lia. Qed.
Lemma suffix_same_len a b : suffix a b -> length a = length b -> a = b.
Proof.
  intros [x ->] H. rewrite app_length in H. destruct x as [|y x]; [reflexivity|]. cbn [length] in H. lia.
Qed.
Lemma chain_suffix a b : suffix a b -> chain b -> chain a.
Proof.
  intros [x ->]. induction x as [|y x IH]; cbn [app chain]; [tauto|]. intros [_ H]. exact (IH H).
Qed.
(* in a chain the transaction id is the height, so a suffix at the same id is the whole log *)
Lemma suffix_same_pos a b : chain b -> suffix a b -> fst (pos_of a) = fst (pos_of b) -> a = b.
Proof.
  intros Hc Hs E. rewrite (chain_len _ Hc), (chain_len _ (chain_suffix _ _ Hs Hc)) in E.
  apply suffix_same_len; [exact Hs|lia].
Qed.

Lemma find_tx_chain x e a : chain (x ++ e :: a) -> find_tx (x ++ e :: a) (e_txid e) = Some e.
Proof.
  induction x as [|y x IH]; cbn [app find_tx chain].
  - intros _. rewrite N.eqb_refl. reflexivity.
  - intros [Hy Hc]. specialize (IH Hc).
    apply extends_spec in Hy. destruct Hy as [Hy _].
    assert (He : e_txid e = N.of_nat (length (e :: a))).
    { apply (chain_suffix (e :: a)) in Hc; [|exists x; reflexivity]. destruct Hc as [Hc1 Hc2].
      apply extends_spec in Hc1. destruct Hc1 as [Hc1 _]. rewrite Hc1, (chain_len _ Hc2). cbn [length]. lia. }
    rewrite (chain_len _ Hc), app_length in Hy.
    destruct (N.eqb_spec (e_txid y) (e_txid e)) as [E|E]; [|exact IH].
    exfalso. rewrite He in E. cbn [length] in *. lia.
Qed.
Lemma find_tx_none l t : chain l -> N.of_nat (length l) < t -> find_tx l t = None.
Proof.
  induction l as [|e r IH]; cbn [find_tx chain length]; [reflexivity|].
  intros [He Hr] Ht. apply extends_spec in He. destruct He as [He _]. rewrite (chain_len _ Hr) in He.
  destruct (N.eqb_spec (e_txid e) t) as [E|E]; [lia|]. apply IH; [exact Hr|lia].
Qed.

Lemma follow_cases a p : chain p -> suffix a p ->
  (a = p /\ find_tx p (fst (pos_of a) + 1) = None) \/
  (exists x e, p = x ++ e :: a /\ find_tx p (fst (pos_of a) + 1) = Some e /\ e_pre e = snd (pos_of a)).
Proof.
  intros Hc [x0 ->]. destruct x0 as [|z x0] using rev_ind; [left|right].
  - cbn [app] in *. split; [reflexivity|]. apply find_tx_none; [exact Hc|]. rewrite (chain_len _ Hc). lia.
  - clear IHx0. rewrite <- app_assoc in *. cbn [app] in *. exists x0, z. split; [reflexivity|].
    pose proof (chain_suffix (z :: a) _ (ex_intro _ x0 eq_refl) Hc) as [Hz _].
    apply extends_spec in Hz. destruct Hz as [Hz1 Hz2]. rewrite <- Hz1. split; [apply find_tx_chain; exact Hc|exact Hz2].
Qed.

(* one round of the stream on a follower's log: [stream_r] and [stream_o] both do this to their log *)
Definition pull (a p : log) : log :=
  match find_tx p (fst (pos_of a) + 1) with
  | Some e => if e_pre e =? snd (pos_of a) then e :: a else a
  | None => a
  end.
Definition lag (a b : log) : nat := length b - length a.
Lemma pull_spec a p : chain p -> suffix a p -> suffix (pull a p) p /\ lag (pull a p) p = pred (lag a p).
Proof.
  intros Hc Hs. unfold pull, lag. destruct (follow_cases a p Hc Hs) as [[-> ->]|[x [e [-> [-> ->]]]]].
  - split; [apply suffix_refl|lia].
  - rewrite N.eqb_refl. split; [exists x; reflexivity|]. rewrite app_length. cbn [length]. lia.
Qed.

Record Inv (s : sys) : Prop := {
  inv_chain : chain (plog s);
  inv_r : suffix (rlog s) (plog s);
  inv_o : suffix (olog s) (plog s)
}.
Lemma log_eqb_eq a b : log_eqb a b = true -> a = b.
Proof.
  revert b. induction a as [|x a IH]; intros [|y b]; cbn [log_eqb]; try discriminate; [reflexivity|].
  rewrite !andb_true_iff, !N.eqb_eq. intros [[[[H1 H2] H3] H4] Hl].
  rewrite (IH _ Hl). destruct x, y; cbn in *; subst. reflexivity.
Qed.
Lemma log_eqb_refl a : log_eqb a a = true.
Proof. induction a as [|x a IH]; cbn [log_eqb]; [reflexivity|]. rewrite !N.eqb_refl, IH. reflexivity. Qed.
Lemma can_handoff_spec s : can_handoff s = true -> ohalt s = None /\ olog s = plog s.
Proof. unfold can_handoff. destruct (ohalt s); [discriminate|]. intros H. split; [reflexivity|apply log_eqb_eq, H]. Qed.

Lemma inv_init : Inv init.
Proof. split; cbn; [exact I|apply suffix_refl|apply suffix_refl]. Qed.

Lemma forward_spec s id e s' :
  forward s id e = (s', true) ->
  holds (phalt s) id = true /\ extends (plog s) e = true /\ plog s' = e :: plog s /\
  phalt s' = phalt s /\ rlock s' = rlock s /\ rlog s' = rlog s /\ olog s' = olog s.
Proof.
  unfold forward. destruct (holds (phalt s) id); cbn [andb]; [|discriminate].
  destruct (extends (plog s) e); [|discriminate]. intros [= <-]. cbn. tauto.
Qed.
Lemma forward_refused s id e s' : forward s id e = (s', false) -> s' = s.
Proof. unfold forward. destruct (_ && _); [discriminate|]. intros [= <-]. reflexivity. Qed.
Lemma forward_without_lock_refused s id e : holds (phalt s) id = false -> forward s id e = (s, false).
Proof. intros H. unfold forward. rewrite H. reflexivity. Qed.

Lemma grant_spec s id s' r : grant s id = (s', r) ->
  plog s' = plog s /\ rlog s' = rlog s /\ olog s' = olog s /\ rlock s' = rlock s.
Proof.
  unfold grant. destruct (id =? 0); [intros [= <- _]; tauto|].
  destruct (phalt s) as [[i p]|]; [destruct (i =? id)|]; intros [= <- _]; cbn; tauto.
Qed.
Lemma release_primary_spec s id :
  plog (release_primary s id) = plog s /\ rlog (release_primary s id) = rlog s /\ olog (release_primary s id) = olog s /\
  rlock (release_primary s id) = rlock s.
Proof. unfold release_primary. destruct (holds _ _); cbn; tauto. Qed.

Lemma commit_cases s post d :
  step s (ECommit post d) = (s, c_refused) \/
  exists id g s', rlock s = Some (id, g) /\ holds (phalt s) id = true /\
    extends (plog s) (next_entry (rlog s) post 1) = true /\
    step s (ECommit post d) = (s', if d then c_ok else c_applied_but_unacknowledged) /\
    plog s' = next_entry (rlog s) post 1 :: plog s /\
    rlog s' = (if d then next_entry (rlog s) post 1 :: rlog s else rlog s) /\
    olog s' = olog s /\ phalt s' = phalt s /\ rlock s' = rlock s.
Proof.
  cbn [step]. destruct (rlock s) as [[id g]|] eqn:Ek; [|left; reflexivity].
  destruct (forward s id _) as [s1 ok] eqn:Ef. destruct ok; cbn [negb].
  - apply forward_spec in Ef. destruct Ef as [Hh [Hx [Hp [Hph [Hrk [Hr Ho]]]]]].
    right. exists id, g. destruct d; eexists; repeat split; try reflexivity; cbn; congruence.
  - apply forward_refused in Ef. subst s1. left; reflexivity.
Qed.

Lemma commit_wal_spec s post d :
  step s (ECommitWal post d) =
  (let '(s1, c) := step s (ECommit post d) in if c =? c_ok then (s1, c) else (restart s1, c)).
Proof.
  cbn [step]. destruct (rlock s) as [[id g]|]; [|reflexivity].
  destruct (forward s id _) as [s1 ok]. destruct ok; cbn [negb]; [|reflexivity]. destruct d; reflexivity.
Qed.

(* Where the logs go: none moves; or the primary appends one linked entry [x], the observer's log stays and the
   replica's log stays or takes the same [x].  [by_whom] is what is known, in that second case, of who appended. *)
Definition logs_move (s s' : sys) (by_whom : Prop) : Prop :=
  (plog s' = plog s /\ rlog s' = rlog s /\ olog s' = olog s) \/
  (exists x, extends (plog s) x = true /\ plog s' = x :: plog s /\ olog s' = olog s /\
     (rlog s' = rlog s \/ rlog s' = x :: rlog s /\ extends (rlog s) x = true) /\ by_whom).
Lemma logs_stay s s' P : plog s' = plog s -> rlog s' = rlog s -> olog s' = olog s -> logs_move s s' P.
Proof. left. tauto. Qed.
Lemma logs_move_by s s' (P Q : Prop) : (P -> Q) -> logs_move s s' P -> logs_move s s' Q.
Proof. intros PQ [H|[x H]]; [left; exact H|right; exists x; tauto]. Qed.

Lemma commit_wal_moves_as_commit s post d P :
  logs_move s (fst (step s (ECommit post d))) P -> logs_move s (fst (step s (ECommitWal post d))) P.
Proof. rewrite commit_wal_spec. destruct (step s (ECommit post d)) as [s1 c]. destruct (c =? c_ok); intros H; exact H. Qed.

Lemma holds_id h i id p : holds h i = true -> h = Some (id, p) -> i = id.
Proof. intros Hh ->. cbn [holds] in Hh. apply N.eqb_eq in Hh. congruence. Qed.

Lemma commit_logs s post d :
  logs_move s (fst (step s (ECommit post d))) (forall id p, phalt s = Some (id, p) -> holds (rlock s) id = true).
Proof.
  destruct (commit_cases s post d) as [->|[id [g [s1 [Hk [Hh [Hx [-> [Hp [Hr [Ho _]]]]]]]]]]]; [apply logs_stay; reflexivity|].
  right. eexists. split; [exact Hx|]. cbn [fst]. rewrite Hr. repeat split; try assumption.
  - destruct d; [right; split; [reflexivity|apply next_entry_extends]|left; reflexivity].
  - intros i p Hip. rewrite Hk, (holds_id _ _ _ _ Hh Hip). cbn [holds]. apply N.eqb_refl.
Qed.

(* while a halt lock is granted, only a forward under that lock's id moves the primary's log *)
Lemma step_moves_logs s e s' c : step s e = (s', c) ->
  logs_move s s' (forall id p, phalt s = Some (id, p) ->
       (exists post d, (e = ECommit post d \/ e = ECommitWal post d) /\ holds (rlock s) id = true) \/
       (exists post, e = EForeign id post)).
Proof.
  intros H. assert (s' = fst (step s e)) as -> by (rewrite H; reflexivity). clear H c.
  destruct e as [id d|post| |post d|sent| |id post|post d| | ].
  - cbn [step]. destruct (grant s id) as [s1 r] eqn:Eg. apply grant_spec in Eg. destruct Eg as [Ep [Er [Eo _]]].
    destruct r as [l|]; [|apply logs_stay; assumption]. destruct (negb d); [apply logs_stay; assumption|].
    destruct (_ && _); [apply logs_stay; assumption|].
    destruct (release_primary_spec s1 (fst l)) as [Ep' [Er' [Eo' _]]]. apply logs_stay; cbn; congruence.
  - cbn [step]. destruct (phalt s); [apply logs_stay; reflexivity|]. right. eexists. split; [apply next_entry_extends|].
    cbn. repeat split; [left; reflexivity|discriminate].
  - cbn [step]. destruct (phalt s); apply logs_stay; reflexivity.
  - eapply logs_move_by; [|apply commit_logs].
    intros H id p Hip. left. exists post, d. split; [left; reflexivity|exact (H id p Hip)].
  - cbn [step]. destruct (rlock s) as [[id g]|]; [|apply logs_stay; reflexivity].
    destruct sent; [|apply logs_stay; reflexivity]. cbn [fst].
    destruct (release_primary_spec {| plog := plog s; phalt := phalt s; rlock := None; rlog := rlog s; olog := olog s; ohalt := ohalt s |} id)
      as [Ep [Er [Eo _]]]. apply logs_stay; assumption.
  - apply logs_stay; reflexivity.
  - cbn [step]. destruct (forward s id _) as [s1 ok] eqn:Ef. destruct ok; cbn [fst].
    + apply forward_spec in Ef. destruct Ef as [Hh [Hx [Hp [_ [_ [Hr Ho]]]]]].
      right. eexists. split; [exact Hx|]. repeat split; try assumption; [left; exact Hr|].
      intros i p Hip. right. exists post. rewrite (holds_id _ _ _ _ Hh Hip). reflexivity.
    + apply forward_refused in Ef. subst s1. apply logs_stay; reflexivity.
  - eapply logs_move_by; [|apply commit_wal_moves_as_commit, commit_logs].
    intros H id p Hip. left. exists post, d. split; [right; reflexivity|exact (H id p Hip)].
  - cbn [step]. destruct (can_handoff s) eqn:Eh; [|apply logs_stay; reflexivity].
    apply can_handoff_spec in Eh. destruct Eh as [_ Eo]. apply logs_stay; cbn; congruence.
  - apply logs_stay; reflexivity.
Qed.

Lemma step_inv s e s' c : Inv s -> step s e = (s', c) -> Inv s'.
Proof.
  intros [Hc Hr Ho] Hs.
  destruct (step_moves_logs _ _ _ _ Hs) as [[Ep [Er Eo]]|[x [Hx [Ep [Eo [Hrx _]]]]]]; split; rewrite Ep, ?Er, ?Eo; try assumption.
  - split; assumption.
  - destruct Hrx as [->|[-> Hxr]]; [apply suffix_cons; exact Hr|].
    (* the accepted entry extends both logs: they have the same height, so they are equal *)
    apply extends_spec in Hxr. apply extends_spec in Hx.
    rewrite (suffix_same_pos _ _ Hc Hr); [apply suffix_refl|lia].
  - apply suffix_cons; exact Ho.
Qed.
Lemma step_inv_fst s e : Inv s -> Inv (fst (step s e)).
Proof. intros H. apply (step_inv s e _ (snd (step s e)) H), surjective_pairing. Qed.

(* the stream touches neither the primary's log nor the halt locks granted *)
Record same_primary (s s' : sys) : Prop :=
  { sp_plog : plog s' = plog s; sp_phalt : phalt s' = phalt s; sp_ohalt : ohalt s' = ohalt s }.
Lemma same_primary_trans s s1 s2 : same_primary s s1 -> same_primary s1 s2 -> same_primary s s2.
Proof. intros [A B C] [A' B' C']. split; congruence. Qed.

Lemma stream_r_primary s : same_primary s (stream_r s).
Proof. unfold stream_r. destruct (find_tx _ _) as [e|]; [destruct (_ =? _)|]; split; reflexivity. Qed.
Lemma stream_r_follows s : rlog (stream_r s) = pull (rlog s) (plog s) /\ olog (stream_r s) = olog s.
Proof. unfold stream_r, pull. destruct (find_tx _ _) as [e|]; [destruct (_ =? _)|]; split; reflexivity. Qed.
Lemma former_primary_stuck s p : ohalt s = Some p -> stream_o s = s.
Proof. intros H. unfold stream_o. rewrite H. reflexivity. Qed.
Lemma stream_o_primary s : same_primary s (stream_o s).
Proof.
  unfold stream_o. destruct (ohalt s) eqn:En; [split; auto|].
  destruct (find_tx _ _) as [e|]; [destruct (_ =? _)|]; split; auto.
Qed.
Lemma stream_o_follows s :
  rlog (stream_o s) = rlog s /\
  olog (stream_o s) = match ohalt s with Some _ => olog s | None => pull (olog s) (plog s) end.
Proof.
  unfold stream_o, pull. destruct (ohalt s); [split; reflexivity|].
  destruct (find_tx _ _) as [e|]; [destruct (_ =? _)|]; split; reflexivity.
Qed.

Lemma stream_r_inv s : Inv s -> Inv (stream_r s).
Proof.
  intros [Hc Hr Ho]. destruct (stream_r_follows s) as [Er Eo].
  split; rewrite (sp_plog _ _ (stream_r_primary s)), ?Er, ?Eo; [exact Hc|apply pull_spec; assumption|exact Ho].
Qed.
Lemma stream_o_inv s : Inv s -> Inv (stream_o s).
Proof.
  intros [Hc Hr Ho]. destruct (stream_o_follows s) as [Er Eo].
  split; rewrite (sp_plog _ _ (stream_o_primary s)), ?Er, ?Eo; [exact Hc|exact Hr|].
  destruct (ohalt s); [exact Ho|apply pull_spec; assumption].
Qed.
Lemma settle_inv n s : Inv s -> Inv (settle n s).
Proof. revert s. induction n as [|n IH]; intros s H; cbn [settle]; [exact H|]. apply IH, stream_o_inv, stream_r_inv, H. Qed.
Lemma settle_primary n s : same_primary s (settle n s).
Proof.
  revert s. induction n as [|n IH]; intros s; cbn [settle]; [split; reflexivity|].
  exact (same_primary_trans _ _ _ (same_primary_trans _ _ _ (stream_r_primary s) (stream_o_primary _)) (IH _)).
Qed.

Lemma settle_converges n s : Inv s -> (lag (rlog s) (plog s) <= n)%nat -> (ohalt s = None -> (lag (olog s) (plog s) <= n)%nat) ->
  rlog (settle n s) = plog s /\ (ohalt s = None -> olog (settle n s) = plog s).
Proof.
  revert s. induction n as [|n IH]; intros s HI Hr Ho; cbn [settle].
  - destruct HI as [_ Sr So]. unfold lag in *. split.
    + apply suffix_same_len; [assumption|]. pose proof (suffix_len _ _ Sr). lia.
    + intros Hn. specialize (Ho Hn). apply suffix_same_len; [assumption|]. pose proof (suffix_len _ _ So). lia.
  - destruct (stream_r_primary s) as [Ep1 _ Eh1]. destruct (stream_o_primary (stream_r s)) as [Ep2 _ Eh2].
    destruct (stream_r_follows s) as [Er1 Eo1]. destruct (stream_o_follows (stream_r s)) as [Er2 Eo2].
    rewrite Ep1 in Ep2. rewrite Eh1 in Eh2, Eo2. rewrite Ep1, Eo1 in Eo2. rewrite Er1 in Er2.
    destruct HI as [Hc Sr So]. pose proof (pull_spec _ _ Hc Sr) as [_ Lr]. pose proof (pull_spec _ _ Hc So) as [_ Lo].
    rewrite <- Ep2, <- Eh2. apply IH.
    + apply stream_o_inv, stream_r_inv. split; assumption.
    + rewrite Er2, Ep2. lia.
    + rewrite Eh2. intros Hn. specialize (Ho Hn). rewrite Eo2, Hn, Ep2. lia.
Qed.

Lemma step_settled_fst s e s' c :
  step_settled s e = (s', c) -> s' = settle (S (length (plog (fst (step s e))))) (fst (step s e)).
Proof. unfold step_settled. destruct (step s e) as [s1 c1]. cbn [fst]. congruence. Qed.
Lemma step_settled_inv s e s' c : Inv s -> step_settled s e = (s', c) -> Inv s'.
Proof.
  intros HI H. apply step_settled_fst in H. subst s'. apply settle_inv, step_inv_fst, HI.
Qed.
(* after every event and the stream that follows it, the replicas hold the primary's whole history - except a former
   primary that still holds the halt lock it had granted: it cannot follow until that lock expires *)
Lemma step_settled_converged s e s' c : Inv s -> step_settled s e = (s', c) ->
  rlog s' = plog s' /\ (ohalt s' = None -> olog s' = plog s').
Proof.
  intros HI H. apply step_settled_fst in H. subst s'.
  destruct (settle_primary (S (length (plog (fst (step s e))))) (fst (step s e))) as [-> _ ->].
  apply settle_converges; [apply step_inv_fst, HI| |]; unfold lag; intros; lia.
Qed.
Lemma run_inv es : forall s, Inv s -> Inv (final s es).
Proof.
  induction es as [|e es IH]; intros s H; cbn [final]; [exact H|].
  apply IH. apply (step_settled_inv s e _ (snd (step_settled s e)) H), surjective_pairing.
Qed.
Theorem final_converged es : forall s0, Inv s0 -> rlog s0 = plog s0 -> (ohalt s0 = None -> olog s0 = plog s0) ->
  Inv (final s0 es) /\ rlog (final s0 es) = plog (final s0 es) /\
  (ohalt (final s0 es) = None -> olog (final s0 es) = plog (final s0 es)).
Proof.
  induction es as [|e es IH]; intros s0 HI Hr Ho; cbn [final]; [tauto|].
  destruct (step_settled s0 e) as [s1 c] eqn:E. cbn [fst].
  destruct (step_settled_converged _ _ _ _ HI E) as [A B]. apply IH; [eapply step_settled_inv; eassumption|exact A|exact B].
Qed.

Lemma halted_refuses_local s post id p : phalt s = Some (id, p) ->
  step s (ELocalWrite post) = (s, c_refused) /\ step s ECheckpoint = (s, c_refused).
Proof. intros H. cbn [step]. rewrite H. split; reflexivity. Qed.
Lemma local_write_needs_no_halt s post s' : step s (ELocalWrite post) = (s', c_ok) -> phalt s = None.
Proof. cbn [step]. destruct (phalt s); [discriminate|reflexivity]. Qed.
Lemma checkpoint_needs_no_halt s s' : step s ECheckpoint = (s', c_ok) -> phalt s = None.
Proof. cbn [step]. destruct (phalt s); [discriminate|reflexivity]. Qed.
Lemma halted_log_moves_only_by_holder s e s' c id p :
  phalt s = Some (id, p) -> step s e = (s', c) -> plog s' <> plog s ->
  (exists post d, (e = ECommit post d \/ e = ECommitWal post d) /\ holds (rlock s) id = true) \/ (exists post, e = EForeign id post).
Proof.
  intros Hh Hs Hne. destruct (step_moves_logs _ _ _ _ Hs) as [[Ep _]|[x [_ [_ [_ [_ Hby]]]]]]; [contradiction|].
  exact (Hby id p Hh).
Qed.

Lemma commit_acknowledged s post d s' : Inv s -> step s (ECommit post d) = (s', c_ok) ->
  exists id g, rlock s = Some (id, g) /\ holds (phalt s) id = true /\ rlog s = plog s /\
    plog s' = next_entry (rlog s) post 1 :: plog s /\ rlog s' = plog s' /\ pos_of (rlog s') = (fst (pos_of (rlog s)) + 1, post).
Proof.
  intros [Hc Hr _] Hs.
  destruct (commit_cases s post d) as [E|[id [g [s1 [Hk [Hh [Hx [E [Hp [Hrl _]]]]]]]]]]; rewrite E in Hs; [discriminate|].
  destruct d; [|discriminate]. injection Hs as <-.
  assert (rlog s = plog s) as El.
  { apply (suffix_same_pos _ _ Hc Hr). apply extends_spec in Hx. cbn [next_entry e_txid] in Hx. lia. }
  exists id, g. rewrite Hrl, Hp, El. repeat split; assumption.
Qed.
Lemma commit_unacknowledged s post d s' : step s (ECommit post d) = (s', c_applied_but_unacknowledged) ->
  d = false /\ plog s' = next_entry (rlog s) post 1 :: plog s /\ rlog s' = rlog s.
Proof.
  intros Hs. destruct (commit_cases s post d) as [E|[id [g [s1 [_ [_ [_ [E [Hp [Hrl _]]]]]]]]]]; rewrite E in Hs; [discriminate|].
  destruct d; [discriminate|]. injection Hs as <-. tauto.
Qed.
Lemma commit_wal_acknowledged s post d s' : step s (ECommitWal post d) = (s', c_ok) -> step s (ECommit post d) = (s', c_ok).
Proof.
  rewrite commit_wal_spec. destruct (step s (ECommit post d)) as [s1 c]. destruct (N.eqb_spec c c_ok) as [->|Hn]; [trivial|].
  intros [= _ ->]. contradiction.
Qed.

Lemma forward_needs_holder s id e s' : forward s id e = (s', true) ->
  exists p, phalt s = Some (id, p) /\ e_txid e = fst (pos_of (plog s)) + 1 /\ e_pre e = snd (pos_of (plog s)).
Proof.
  intros H. apply forward_spec in H. destruct H as [Hh [Hx _]]. apply extends_spec in Hx.
  destruct (phalt s) as [[i p]|]; cbn [holds] in Hh; [|discriminate]. apply N.eqb_eq in Hh. subst. exists p. tauto.
Qed.

Lemma grant_some s id s1 l : grant s id = (s1, Some l) ->
  id <> 0 /\ fst l = id /\ phalt s1 = Some l /\ (phalt s = Some l /\ s1 = s \/ phalt s = None /\ snd l = pos_of (plog s)).
Proof.
  unfold grant. destruct (N.eqb_spec id 0) as [|H0]; [discriminate|].
  destruct (phalt s) as [[i p]|] eqn:Eh; [destruct (N.eqb_spec i id) as [->|]; [|discriminate]|]; intros [= <- <-]; cbn; auto 6.
Qed.

Lemma grant_ok_position s id s' : Inv s -> step s (EGrant id true) = (s', c_ok) ->
  exists l, rlock s' = Some l /\ phalt s' = Some l /\ fst l = id /\ pos_of (rlog s') = snd l /\
    (phalt s = None -> snd l = pos_of (plog s') /\ rlog s' = plog s').
Proof.
  intros [Hc Hr _]. cbn [step]. destruct (grant s id) as [s1 [l|]] eqn:Eg; [|discriminate]. cbn [negb].
  destruct (_ && _) eqn:Eb; [|discriminate]. intros [= <-]. cbn [rlock phalt rlog plog].
  destruct (grant_spec _ _ _ _ Eg) as [Ep [Er _]]. destruct (grant_some _ _ _ _ Eg) as [_ [Hi [Hp Hcase]]].
  apply andb_true_iff in Eb. rewrite !N.eqb_eq in Eb.
  assert (pos_of (rlog s1) = snd l) as Epos by (destruct (pos_of (rlog s1)), (snd l); cbn in *; f_equal; symmetry; apply Eb).
  exists l. split; [reflexivity|]. split; [exact Hp|]. split; [exact Hi|]. split; [exact Epos|].
  intros Hn. destruct Hcase as [[Hs _]|[_ Hl]]; [congruence|].
  split; [rewrite Ep; exact Hl|]. rewrite Er, Ep. apply (suffix_same_pos _ _ Hc Hr). rewrite <- Er, Epos, Hl. reflexivity.
Qed.

Lemma grant_idempotent s id s1 l : grant s id = (s1, Some l) -> grant s1 id = (s1, Some l).
Proof.
  intros H. destruct (grant_some _ _ _ _ H) as [H0 [Hi [Hp _]]]. unfold grant. apply N.eqb_neq in H0. rewrite H0, Hp.
  destruct l as [i p]. cbn in Hi. subst i. rewrite N.eqb_refl. reflexivity.
Qed.
Lemma grant_other_id_refused s id i p : phalt s = Some (i, p) -> i <> id -> grant s id = (s, None).
Proof.
  intros Hh Hne. unfold grant. destruct (id =? 0); [reflexivity|]. rewrite Hh.
  destruct (N.eqb_spec i id); [contradiction|reflexivity].
Qed.

Lemma release_frees s s' id g : rlock s = Some (id, g) -> holds (phalt s) id = true -> step s (ERelease true) = (s', c_ok) ->
  phalt s' = None /\ rlock s' = None /\ plog s' = plog s.
Proof.
  intros Hr Hh. cbn [step]. rewrite Hr. intros [= <-]. unfold release_primary. cbn. rewrite Hh. cbn. tauto.
Qed.
Lemma expire_frees s : phalt (fst (step s EExpire)) = None /\ plog (fst (step s EExpire)) = plog s.
Proof. cbn. tauto. Qed.
Lemma free_primary_writes s post : phalt s = None -> snd (step s (ELocalWrite post)) = c_ok.
Proof. intros H. cbn [step]. rewrite H. reflexivity. Qed.
Lemma former_holder_cannot_publish s post d : phalt s = None -> step s (ECommit post d) = (s, c_refused).
Proof.
  intros H. cbn [step]. destruct (rlock s) as [[id g]|]; [|reflexivity].
  rewrite forward_without_lock_refused; [reflexivity|]. rewrite H. reflexivity.
Qed.
Lemma replica_without_lock_cannot_write s post d : rlock s = None -> step s (ECommit post d) = (s, c_refused).
Proof. intros H. cbn [step]. rewrite H. reflexivity. Qed.

Lemma restart_forgets s post d :
  let s1 := fst (step s ERestart) in
  rlock s1 = None /\ plog s1 = plog s /\ phalt s1 = phalt s /\ rlog s1 = rlog s /\ step s1 (ECommit post d) = (s1, c_refused).
Proof. cbn. repeat split; reflexivity. Qed.

Lemma handoff_spec s s' : step s EHandoff = (s', c_ok) ->
  ohalt s = None /\ olog s = plog s /\ plog s' = plog s /\ olog s' = plog s /\ phalt s' = None /\ ohalt s' = phalt s /\
  rlock s' = rlock s /\ rlog s' = rlog s.
Proof.
  cbn [step]. destruct (can_handoff s) eqn:Eh; [|discriminate]. intros [= <-].
  apply can_handoff_spec in Eh. destruct Eh as [En Eo]. cbn. rewrite Eo. tauto.
Qed.
Lemma handoff_refused s s' : step s EHandoff = (s', c_refused) -> s' = s.
Proof. cbn [step]. destruct (can_handoff s); [discriminate|]. intros [= <-]. reflexivity. Qed.
Lemma handoff_accepted_when_converged s : ohalt s = None -> olog s = plog s -> snd (step s EHandoff) = c_ok.
Proof. intros Hn Ho. cbn [step]. unfold can_handoff. rewrite Hn, Ho, log_eqb_refl. reflexivity. Qed.
Lemma handoff_to_stuck_node_refused s p : ohalt s = Some p -> step s EHandoff = (s, c_refused).
Proof. intros H. cbn [step]. unfold can_handoff. rewrite H. reflexivity. Qed.
Lemma handoff_new_primary_free s s' post d : step s EHandoff = (s', c_ok) ->
  snd (step s' (ELocalWrite post)) = c_ok /\ step s' (ECommit post d) = (s', c_refused) /\
  (forall id e, forward s' id e = (s', false)).
Proof.
  intros H. apply handoff_spec in H. destruct H as [_ [_ [_ [_ [Hp _]]]]].
  split; [apply free_primary_writes; exact Hp|]. split; [apply former_holder_cannot_publish; exact Hp|].
  intros id e. apply forward_without_lock_refused. rewrite Hp. reflexivity.
Qed.
Lemma expire_unsticks s : ohalt (fst (step s EExpire)) = None /\ phalt (fst (step s EExpire)) = None.
Proof. cbn. tauto. Qed.
Lemma expire_settled_converges s s' c : Inv s -> step_settled s EExpire = (s', c) -> rlog s' = plog s' /\ olog s' = plog s'.
Proof.
  intros HI H. destruct (step_settled_converged _ _ _ _ HI H) as [A B]. split; [exact A|]. apply B.
  apply step_settled_fst in H. subst s'. apply settle_primary.
Qed.

(* what "the halt lock pins the write lock" means on the lock table (C11's model) *)
Lemma halt_guard_blocks_writers t g wal t' h :
  TInv t -> (forall l, gst (t l) g = Unlocked) -> try_acquire_write t g wal = Some (true, t') -> h <> g ->
  (wal = false -> exists t2, t_trylock t' LReserved h = Some (false, t2)) /\
  (wal = true -> (exists t2, t_trylock t' LWrite h = Some (false, t2)) /\ (exists t2, t_trylock t' LCkpt h = Some (false, t2))).
Proof.
  intros HI Hfree Hacq Hne. destruct (internal_write_excludes t g wal t' HI Hfree Hacq) as [HI' [_ [Hr Hw]]].
  assert (Hb : forall l, excl_held t' g l -> exists t2, t_trylock t' l h = Some (false, t2)).
  { intros l [Hl _]. destruct (trylock_blocked t' l g h HI') as [t2 [E _]]; [congruence|exact Hne|]. exists t2. exact E. }
  split; intros ->; [apply Hb, Hr, eq_refl|]. split; apply Hb, Hw, eq_refl.
Qed.

(* a grant whose position the replica does not reach is no grant: the replica holds nothing afterwards and cannot write *)
Lemma grant_not_reached_forgets s id s' post d : step s (EGrant id true) = (s', c_refused) ->
  grant s id <> (fst (grant s id), None) -> rlock s' = None /\ step s' (ECommit post d) = (s', c_refused).
Proof.
  cbn [step]. destruct (grant s id) as [s1 r] eqn:Eg. destruct r as [l|]; [|intros _ H; exfalso; apply H; reflexivity].
  cbn [negb]. destruct (_ && _); [discriminate|]. intros [= <-] _. cbn. split; reflexivity.
Qed.

(* a replica that is behind the primary - by any number of transactions - when it asks for the lock ends up holding the
   lock the primary granted, at the primary's position *)
Theorem grant_wait_holds s id : Inv s -> phalt s = None -> id <> 0 ->
  snd (grant_wait s id false) = c_ok /\
  rlock (fst (grant_wait s id false)) = Some (id, pos_of (plog s)) /\
  phalt (fst (grant_wait s id false)) = Some (id, pos_of (plog s)) /\
  rlog (fst (grant_wait s id false)) = plog s /\ plog (fst (grant_wait s id false)) = plog s.
Proof.
  intros HI Hp Hid. unfold grant_wait, grant. apply N.eqb_neq in Hid. rewrite Hid, Hp.
  set (l := (id, pos_of (plog s))).
  set (s1 := {| plog := plog s; phalt := Some l; rlock := rlock s; rlog := rlog s; olog := olog s; ohalt := ohalt s |}).
  assert (Inv s1) as HI1 by (destruct HI as [A B C]; constructor; assumption).
  destruct (settle_primary (S (length (plog s1))) s1) as [Ep Eh _].
  destruct (settle_converges (S (length (plog s1))) s1 HI1) as [Er _]; [unfold lag; lia|unfold lag; intros; lia|].
  set (s2 := settle (S (length (plog s1))) s1) in *.
  cbn [snd fst l]. rewrite Er. change (plog s1) with (plog s). rewrite !N.eqb_refl. cbn [andb fst snd with_rlock rlock phalt rlog plog].
  rewrite Eh, Er, Ep. repeat split; reflexivity.
Qed.

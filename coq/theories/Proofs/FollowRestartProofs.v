(* C01 without the no-collision premise, the primary's own restart: the newest transaction file agrees with the logical
   database (LastAgree, kept by every step), so Open - checkpoint, recompute, re-apply that file - leaves the logical database
   and the position alone; the follower, which is sent nothing, still holds it.  With it, the theorems over histories. *)
From Coq Require Import NArith List Lia.
Require Import LF.Model.PageDB LF.Proofs.ChecksumProofs LF.Proofs.CaptureProofs LF.Proofs.ChainProofs
  LF.Proofs.HistoryProofs LF.Proofs.WalCheckpointProofs LF.Proofs.SqlCheckpointProofs LF.Proofs.ApplyHistoryProofs
  LF.Proofs.OpenProofs LF.Proofs.ComposeProofs LF.Proofs.FollowProofs LF.Proofs.FollowWalProofs
  LF.Proofs.FollowGProofs.
Import ListNotations.
Local Open Scope N_scope.

(* the newest file names the node's position and size, and its pages are the logical database's *)
Definition LastAgree (s : st) : Prop :=
  forall f rest, rev (ltxdir s) = f :: rest ->
    l_commit f = pageN s /\ l_max f = txid s /\ l_post f = chk s /\
    forall p q, In (p, q) (l_pages f) -> 1 <= p <= l_commit f -> lpage s p = q.

Lemma last_agree_init lock : LastAgree (init lock).
Proof. intros f rest Hr. discriminate. Qed.

Lemma last_agree_quiet s s' : LastAgree s -> ltxdir s' = ltxdir s -> pageN s' = pageN s -> txid s' = txid s -> chk s' = chk s ->
  (forall x, 1 <= x <= pageN s -> lpage s' x = lpage s x) -> LastAgree s'.
Proof.
  intros HL Hd Hp Ht Hc Hlp f rest Hr. rewrite Hd in Hr. destruct (HL f rest Hr) as [A [B [C D]]].
  split; [congruence|]. split; [congruence|]. split; [congruence|].
  intros p q Hin Hpq. rewrite Hlp by lia. apply (D p q Hin Hpq).
Qed.

Lemma pub_last_agree s s' fs : Pub s s' (lpage s) (lpage s') fs -> LastAgree s -> LastAgree s'.
Proof.
  intros [Hd Hl Hp Ht Hc Hq|f rest Hd Hl Hr Hw Hp Ht Hc H1 H2] HL.
  - exact (last_agree_quiet s s' HL Hd Hp Ht Hc Hq).
  - intros g rest' Hg. rewrite Hd in Hg. injection Hg as <- _. auto.
Qed.

Lemma checkpoint_fpg s : (forall p q, In (p, q) (wpages s) -> 1 <= p) -> KeysNoDup (wpages s) ->
  forall x, 1 <= x -> (wpages s = [] \/ x <= snd (wscan s)) -> fpg (snd (op_checkpoint s)) x = lpage s x.
Proof.
  intros Hpos Hnd x Hx [Hc|Hc].
  - apply (checkpoint_lpage s x Hpos Hnd); [intros Hn; contradiction|lia].
  - apply (checkpoint_lpage s (snd (wscan s)) Hpos Hnd); [reflexivity|lia].
Qed.

Lemma open_recomputed_fpg s x : fpg (open_recomputed s) x = fpg (snd (op_checkpoint (open_s0 s))) x.
Proof. unfold fpg. destruct (open_recomputed_keeps s) as [_ [_ [_ [_ [_ [_ [_ Ed]]]]]]]. rewrite Ed. reflexivity. Qed.
Lemma open_s0_log s : wpages (open_s0 s) = wpages s /\ wscan (open_s0 s) = wscan s /\ forall x, lpage (open_s0 s) x = lpage s x.
Proof.
  unfold open_s0. destruct (match file_hdr s with Some (n, w) => (n, w) | None => (0, false) end) as [pN0 wal0].
  split; [reflexivity|]. split; [reflexivity|]. intros x. reflexivity.
Qed.
Lemma open_recomputed_dirty s : dirty (open_recomputed s) = [].
Proof. apply (open_recomputed_keeps s). Qed.
Lemma open_dirty s s' : op_open s = (Done, s') -> dirty s' = [].
Proof.
  rewrite op_open_eq. destruct (rev (ltxdir (open_recomputed s))) as [|f rest]; intros E.
  - inversion E; subst s'. apply open_recomputed_dirty.
  - rewrite (apply_dirty _ f false s' E). apply open_recomputed_dirty.
Qed.

Lemma restart_pub sP v sP' : GInv sP v -> LastAgree sP -> wf_restart sP -> op_open sP = (Done, sP') ->
  Pub sP sP' (lpage sP) (lpage sP') [] /\ wal_file sP' = [].
Proof.
  intros HI HL Hwf H.
  destruct (ginv_basic sP v HI) as [Hlk Hw].
  destruct Hwf as [f [rest [Hr [[Hwfl Hmax] [Hg Hex]]]]].
  destruct (HL f rest Hr) as [Lc [Lm [Lp Lpages]]].
  destruct (open_checksum sP f rest sP' Hlk Hr Hwfl Hg H) as [_ [El [Et [Ep [Ec _]]]]].
  rewrite op_open_eq, ltxdir_open_recomputed, Hr in H.
  destruct (apply_done _ f false sP' H) as [_ [_ [_ Ad]]]. rewrite ltxdir_open_recomputed in Ad.
  destruct (open_recomputed_misc sP) as [_ [Of _]].
  pose proof (apply_wal_file _ f false sP' H Of) as Hf'.
  destruct (ginv_wpages sP _ HI) as [Kpos [Knd Klast]].
  split; [|exact Hf']. apply pub_none; try congruence.
  intros x Hx. rewrite (lpage_nolog sP' x Hf'), (apply_fpg _ f false sP' H Hwfl ltac:(lia) x ltac:(lia)).
  destruct (alookup x (l_pages f)) as [q|] eqn:Ea.
  - apply alookup_in in Ea. symmetry. apply (Lpages x q Ea). lia.
  - rewrite open_recomputed_fpg. destruct (open_s0_log sP) as [Ew [Es Elp]].
    rewrite <- Elp. apply (checkpoint_lpage (open_s0 sP) (pageN sP)); [rewrite Ew; exact Kpos|rewrite Ew; exact Knd| |lia].
    rewrite Ew, Es. exact Klast.
Qed.

Lemma last_agree_gstep sP v g sP' : GInv sP v -> dirty sP = [] -> LastAgree sP -> wf_gstep sP g -> no_restart g ->
  grun sP g = Some sP' -> LastAgree sP'.
Proof.
  intros HI Hd HL Hwf Hnr H. exact (pub_last_agree sP sP' _ (proj1 (g_pub sP v g sP' HI Hd Hwf Hnr H)) HL).
Qed.

Lemma last_agree_step sP sR v g sP' : FGInv sP sR v -> LastAgree sP -> wf_gstep sP g -> no_restart g ->
  grun sP g = Some sP' -> LastAgree sP'.
Proof. intros [HI [Hd _]]. exact (last_agree_gstep sP v g sP' HI Hd). Qed.

Lemma g_pub_all s v g s' : GInv s v -> dirty s = [] -> LastAgree s -> wf_gstep s g -> grun s g = Some s' ->
  Pub s s' (lpage s) (lpage s') (sent s g s') /\ dirty s' = [].
Proof.
  intros HI Hd HL Hwf H. destruct (restart_or_not g) as [Hnr| ->].
  - exact (g_pub s v g s' HI Hd Hwf Hnr H).
  - apply grun_inv in H. destruct (restart_pub s v s' HI HL Hwf H) as [HP _]. split; [|exact (open_dirty s s' H)].
    cbn [sent]. rewrite new_files_same; [exact HP|]. inversion HP; assumption.
Qed.

Lemma fg_step sP sR v g sP' sR' : FGInv sP sR v -> LastAgree sP -> wf_gstep sP g ->
  grun sP g = Some sP' -> run_recv sR (sent sP g sP') = Some sR' ->
  FGInv sP' sR' (gview sP sP' g v) /\ LastAgree sP'.
Proof.
  intros [HI [Hd HS]] HL Hwf H HR. destruct (g_pub_all sP v g sP' HI Hd HL Hwf H) as [HP Hd'].
  split; [|exact (pub_last_agree sP sP' _ HP HL)].
  split; [exact (proj1 (g_step sP v g sP' HI Hwf H))|]. split; [exact Hd'|exact (simw_pub sP sP' _ sR sR' HP HS HR)].
Qed.

Lemma follow_restart sP sR v sP' : FGInv sP sR v -> LastAgree sP -> wf_restart sP -> op_open sP = (Done, sP') ->
  FGInv sP' sR (file_h sP') /\ LastAgree sP' /\ new_files sP sP' = [].
Proof.
  intros HI HL Hwf H. assert (Hg : grun sP GRestart = Some sP') by (cbn [grun]; rewrite H; reflexivity).
  assert (En : new_files sP sP' = []).
  { destruct (restart_pub sP v sP' (proj1 HI) HL Hwf H) as [HP _]. apply new_files_same. inversion HP; assumption. }
  destruct (fg_step sP sR v GRestart sP' sR HI HL Hwf Hg) as [HI' HL']; [cbn [sent]; rewrite En; reflexivity|].
  split; [exact HI'|]. split; [exact HL'|exact En].
Qed.

Theorem followg_all_invariant : forall gs sP sR v sP' sR',
  FGInv sP sR v -> LastAgree sP -> wf_gsteps sP gs -> followg sP sR v gs = Some (sP', sR') ->
  exists v', FGInv sP' sR' v' /\ LastAgree sP' /\ lockpg sP' = lockpg sP.
Proof.
  induction gs as [|g r IH]; intros sP sR v sP' sR' HI HL Hwf H; cbn [followg wf_gsteps] in *.
  - inversion H; subst. exists v. auto.
  - destruct Hwf as [Hw Hrest]. destruct (grun sP g) as [s1|] eqn:E; [|discriminate].
    destruct (run_recv sR (sent sP g s1)) as [r1|] eqn:Er; [|discriminate].
    destruct (fg_step sP sR v g s1 r1 HI HL Hw E Er) as [HI1 HL1].
    destruct (g_step sP v g s1 (proj1 HI) Hw E) as [_ El1].
    destruct (IH s1 r1 _ sP' sR' HI1 HL1 (Hrest s1 eq_refl) H) as [v' [A [B C]]]. exists v'. split; [exact A|]. split; [exact B|congruence].
Qed.

Theorem follower_identical_all lock gs sP sR :
  1 <= lock -> wf_gsteps (init lock) gs -> followg (init lock) (init lock) (fun _ => 0) gs = Some (sP, sR) ->
  txid sR = txid sP /\ chk sR = chk sP /\ pageN sR = pageN sP /\
  (forall p, 1 <= p <= pageN sP -> p <> lock -> fpg sR p = lpage sP p).
Proof.
  intros Hl Hwf H.
  destruct (followg_all_invariant gs _ _ _ sP sR (fginv_init lock Hl) (last_agree_init lock) Hwf H) as [v' [[_ [_ [A B C D E]]] [_ El]]].
  change (lockpg (init lock)) with lock in El. rewrite El in E. auto.
Qed.

Theorem follower_identical_g lock gs sP sR :
  1 <= lock -> wf_fgsteps (init lock) gs -> followg (init lock) (init lock) (fun _ => 0) gs = Some (sP, sR) ->
  txid sR = txid sP /\ chk sR = chk sP /\ pageN sR = pageN sP /\
  (forall p, 1 <= p <= pageN sP -> p <> lock -> fpg sR p = lpage sP p).
Proof. intros Hl Hwf. exact (follower_identical_all lock gs sP sR Hl (wf_fgsteps_gsteps gs _ Hwf)). Qed.

Theorem follower_identical lock hs sP sR :
  1 <= lock -> wf_hist (init lock) hs -> follow (init lock) (init lock) hs = Some (sP, sR) ->
  txid sR = txid sP /\ chk sR = chk sP /\ pageN sR = pageN sP /\
  (forall p, 1 <= p <= pageN sP -> p <> lock -> fpg sR p = fpg sP p).
Proof.
  intros Hl Hwf H.
  destruct (journal_history_invariant hs (init lock) sP (j_init lock Hl) Hwf (follow_run_hsteps hs _ _ sP sR H)) as [HJ _].
  rewrite (follow_followg (fun _ => 0)) in H.
  destruct (followg_all_invariant _ _ _ _ sP sR (fginv_init lock Hl) (last_agree_init lock) (wf_hist_gsteps hs _ (j_init lock Hl) Hwf) H)
    as [v' [[HG [_ [A B C D E]]] [_ El]]].
  change (lockpg (init lock)) with lock in El. rewrite El in E. repeat (split; [assumption|]).
  intros p Hp Hnl. rewrite (E p Hp Hnl). exact (lpage_nolog sP p (proj1 (proj2 (ginv_j sP v' HG (j_mode sP HJ))))).
Qed.

Theorem follower_identical_wal lock hs zf acts c os s1 r1 s2 r2 sP sR :
  1 <= lock -> wf_hist (init lock) hs -> follow (init lock) (init lock) hs = Some (s1, r1) ->
  wf_tx_any s1 zf acts -> run_group s1 (hops s1 (HTx zf acts c)) = (0, s2) -> wal_mode s2 = true ->
  run_recv r1 (new_files s1 s2) = Some r2 ->
  wf_wops2 s2 os -> followw s2 r2 (file_h s2) os = Some (sP, sR) ->
  txid sR = txid sP /\ chk sR = chk sP /\ pageN sR = pageN sP /\
  (forall p, 1 <= p <= pageN sP -> p <> lock -> fpg sR p = lpage sP p).
Proof.
  intros Hl Hwf H1 Hsw H2 Hm HR Hww H3.
  destruct (journal_history_invariant hs (init lock) s1 (j_init lock Hl) Hwf (follow_run_hsteps hs _ _ s1 r1 H1)) as [HJ _].
  rewrite (follow_followg (fun _ => 0)) in H1.
  destruct (followg_all_invariant _ _ _ _ s1 r1 (fginv_init lock Hl) (last_agree_init lock) (wf_hist_gsteps hs _ (j_init lock Hl) Hwf) H1)
    as [v1 [HI1 [HL1 El1]]].
  assert (Hg : grun s1 (GSwitch zf acts c) = Some s2) by (cbn [grun]; rewrite H2; reflexivity).
  assert (Hw : wf_gstep s1 (GSwitch zf acts c)).
  { split; [exact (j_mode s1 HJ)|]. split; [exact Hsw|]. intros s' E. rewrite H2 in E. injection E as <-. exact Hm. }
  destruct (fg_step s1 r1 v1 _ s2 r2 HI1 HL1 Hw Hg HR) as [HI2 HL2]. cbn [gview] in HI2.
  destruct (g_step s1 v1 _ s2 (proj1 HI1) Hw Hg) as [_ El2].
  destruct (ginv_w _ _ (proj1 HI2) Hm) as [HW HK].
  rewrite followw_followg in H3.
  destruct (followg_all_invariant _ _ _ _ sP sR HI2 HL2 (wf_wops2_gsteps os s2 _ HW HK Hww) H3) as [v' [[_ [_ [A B C D E]]] [_ El]]].
  assert (lockpg sP = lock) as Elk by (change lock with (lockpg (init lock)); congruence). rewrite Elk in E. auto.
Qed.

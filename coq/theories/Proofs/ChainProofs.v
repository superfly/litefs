(* C09: the transaction log is one contiguous chain ending at the current position.  Also here, because every later file
   needs them: the inversions of op_apply (apply_pre, op_apply_inv, apply_keeps, apply_done) and of op_import. *)
From Coq Require Import NArith List Lia Bool.
Require Import LF.Model.PageDB LF.Proofs.ChecksumProofs LF.Proofs.CaptureProofs LF.Proofs.HistoryProofs.
Import ListNotations.
Local Open Scope N_scope.

Lemma linked_cons f r : linked (f :: r) <->
  match r with g :: _ => l_min g = l_max f + 1 /\ l_pre g = l_post f /\ linked r | [] => True end.
Proof. destruct r; cbn; tauto. Qed.

Lemma linked_app_one : forall d f, linked d ->
  match rev d with g :: _ => l_min f = l_max g + 1 /\ l_pre f = l_post g | [] => True end ->
  linked (d ++ [f]).
Proof.
  induction d as [|a d IH]; intros f Hl Hlast; [exact I|].
  cbn [app]. apply linked_cons. apply linked_cons in Hl. destruct d as [|b d].
  - cbn [app]. cbn [rev app] in Hlast. destruct Hlast as [A B]. repeat split; assumption || exact I.
  - cbn [app]. destruct Hl as [A [Bq C]]. split; [assumption|]. split; [assumption|].
    apply (IH f C). cbn [rev] in Hlast |- *. destruct (rev d ++ [b]) as [|g l] eqn:E.
    + destruct (rev d); discriminate.
    + cbn [app] in Hlast. exact Hlast.
Qed.

Lemma linked_app_r : forall a b, linked (a ++ b) -> linked b.
Proof.
  induction a as [|x a IH]; intros b H; [exact H|]. apply IH. cbn [app] in H. apply linked_cons in H.
  destruct (a ++ b); [exact I|apply H].
Qed.

Lemma ends_at_snoc d f t c : ends_at (d ++ [f]) t c <-> l_max f = t /\ l_post f = c.
Proof. unfold ends_at. rewrite rev_app_distr. reflexivity. Qed.

Lemma chain_append s s' f :
  Chain s -> ltxdir s' = ltxdir s ++ [f] -> l_min f = txid s + 1 -> l_pre f = chk s ->
  txid s' = l_max f -> chk s' = l_post f -> Chain s'.
Proof.
  intros [Hl He] Ed Em Ep Et Ec. unfold Chain. rewrite Ed, Et, Ec. split; [|apply ends_at_snoc; auto].
  apply linked_app_one; [assumption|]. unfold ends_at in He. destruct (rev (ltxdir s)) as [|g l]; [exact I|].
  destruct He as [A B]. split; congruence.
Qed.

Lemma chain_pos s s' : Chain s -> txid s' = txid s /\ chk s' = chk s /\ ltxdir s' = ltxdir s -> Chain s'.
Proof. unfold Chain. intros HC [A [B C]]. rewrite A, B, C. exact HC. Qed.

Theorem chain_commit_journal s commit s' : Chain s -> op_commit_journal s commit = (Done, s') -> Chain s'.
Proof.
  intros HC H. destruct (commit_journal_file s commit s' H) as [f [E1 [E2 [E3 [E4 [E5 _]]]]]].
  destruct (commit_journal_pos s commit s' H) as [Et _].
  apply (chain_append s s' f HC E1 E2 E4); congruence.
Qed.

Theorem chain_commit_wal s frames commit s' : Chain s -> op_commit_wal s frames commit = (Done, s') -> Chain s'.
Proof.
  intros HC H. destruct (commit_wal_file s frames commit s' H) as [f [E1 [E2 [E3 [E4 [E5 [E6 [E7 [E8 _]]]]]]]]].
  apply (chain_append s s' f HC E1 E2 E4); congruence.
Qed.

Theorem chain_drop s s' : Chain s -> op_drop s = (Done, s') -> Chain s'.
Proof.
  intros HC H. destruct (op_drop_inv s s' H) as [_ ->].
  apply (chain_append s _ (mkLtx (txid s + 1) (txid s + 1) (chk s) flag 0 []) HC); reflexivity.
Qed.

Lemma pos_checkpoint s o s' : op_checkpoint s = (o, s') -> txid s' = txid s /\ chk s' = chk s /\ ltxdir s' = ltxdir s.
Proof. intros H. pose proof (checkpoint_keeps s) as K. rewrite H in K. apply K. Qed.

(* ApplyLTXNoLock up to its checksum comparison: the pages written, the database file cut to the size the file names (or
   removed, for a tombstone), the size and journal mode set; position and log directory are still the old ones *)
Definition apply_pre (s : st) (f : ltxrec) : st :=
  let s1 := fold_left (fun a kv => write_db_page a (fst kv) (snd kv)) (l_pages f) s in
  let '(s2, wal2) :=
    if l_commit f =? 0
    then (mkSt (writeable s1) (lockpg s1) [] (pageN s1) (wal_mode s1) [] [] (wal_chk s1) (wal_latest s1) [] (dirty s1)
               (txid s1) (chk s1) (ltxdir s1), false)
    else (truncate_db s1 (l_commit f), match alookup 1 (l_pages f) with Some q => pg_wal q | None => wal_mode s end) in
  with_pos s2 (l_commit f) wal2 (txid s2) (chk s2) (ltxdir s2).

Lemma op_apply_eq s f fatal : op_apply s f fatal =
  let s3 := apply_pre s f in
  match checksum s3 (l_commit f) [] with
  | (Some c, s4) =>
      if c =? l_post f then (Done, with_pos s4 (l_commit f) (wal_mode s3) (l_max f) (l_post f) (ltxdir s4))
      else (if fatal then Exited else Failed, s4)
  | (None, s4) => (if fatal then Exited else Failed, s4)
  end.
Proof. unfold op_apply, apply_pre. destruct (l_commit f =? 0); reflexivity. Qed.

Lemma op_apply_inv s f fatal s' : op_apply s f fatal = (Done, s') ->
  exists s4, checksum (apply_pre s f) (l_commit f) [] = (Some (l_post f), s4) /\
             s' = with_pos s4 (l_commit f) (wal_mode (apply_pre s f)) (l_max f) (l_post f) (ltxdir s4).
Proof.
  rewrite op_apply_eq. cbn zeta. destruct (checksum (apply_pre s f) (l_commit f) []) as [[c|] s4]; [|destruct fatal; discriminate].
  destruct (N.eqb_spec c (l_post f)) as [->|_]; [|destruct fatal; discriminate].
  intros H. exists s4. split; [reflexivity|]. congruence.
Qed.

Lemma apply_fatal_not_failed s f s' : op_apply s f true <> (Failed, s').
Proof.
  rewrite op_apply_eq. cbn zeta. destruct (checksum (apply_pre s f) (l_commit f) []) as [[c|] s4]; [|discriminate].
  destruct (c =? l_post f); discriminate.
Qed.

Lemma apply_keeps s f fatal s' : op_apply s f fatal = (Done, s') ->
  writeable s' = writeable s /\ lockpg s' = lockpg s /\ wal_chk s' = wal_chk s /\ wal_latest s' = wal_latest s /\
  dirty s' = dirty s /\ ltxdir s' = ltxdir s.
Proof.
  intros H. destruct (op_apply_inv s f fatal s' H) as [s4 [Ec ->]]. destruct (checksum_result _ _ _ _ _ Ec) as [[] _].
  cbn [writeable lockpg wal_chk wal_latest dirty ltxdir with_pos].
  destruct (frame_fold_write (l_pages f) s). unfold apply_pre in *. destruct (l_commit f =? 0).
  - cbn [writeable lockpg wal_chk wal_latest dirty ltxdir with_pos] in *. repeat split; congruence.
  - destruct (frame_truncate_db (fold_left (fun a kv => write_db_page a (fst kv) (snd kv)) (l_pages f) s) (l_commit f)).
    cbn [writeable lockpg wal_chk wal_latest dirty ltxdir with_pos] in *. repeat split; congruence.
Qed.

Lemma apply_done s f fatal s' :
  op_apply s f fatal = (Done, s') ->
  txid s' = l_max f /\ chk s' = l_post f /\ pageN s' = l_commit f /\ ltxdir s' = ltxdir s.
Proof.
  intros H. split; [|split; [|split; [|apply (apply_keeps s f fatal s' H)]]];
    destruct (op_apply_inv s f fatal s' H) as [s4 [_ ->]]; reflexivity.
Qed.

Lemma extends_pos_spec s f : extends_pos s f = true <-> l_min f = txid s + 1 /\ l_pre f = chk s.
Proof. unfold extends_pos. rewrite andb_true_iff, !N.eqb_eq. reflexivity. Qed.

(* a file placed in the directory - alone if it is a snapshot, else after the files there - and applied *)
Definition applied_to (s : st) (f : ltxrec) (s' : st) : Prop :=
  op_apply (with_dir s (if is_snapshot f then [f] else ltxdir s ++ [f])) f true = (Done, s').

Lemma chain_applied s f s' : Chain s -> negb (is_snapshot f) && negb (extends_pos s f) = false -> applied_to s f s' -> Chain s'.
Proof.
  intros HC Hc H. apply apply_done in H. destruct H as [Et [Ec [_ Ed]]]. cbn [ltxdir with_dir] in Ed.
  destruct (is_snapshot f).
  - unfold Chain. rewrite Ed, Et, Ec. split; [exact I|]. apply (ends_at_snoc []). auto.
  - cbn [negb andb] in Hc. apply negb_false_iff, extends_pos_spec in Hc. destruct Hc as [A B].
    exact (chain_append s s' f HC Ed A B Et Ec).
Qed.

Theorem chain_receive s f s' : Chain s -> op_receive s f = (Done, s') -> Chain s'.
Proof.
  intros HC H. unfold op_receive in H. destruct (negb (is_snapshot f) && negb (extends_pos s f)) eqn:Hc; [discriminate|].
  exact (chain_applied s f s' HC Hc H).
Qed.

Theorem snapshot_replaces_chain s f s' :
  is_snapshot f = true -> op_receive s f = (Done, s') -> ltxdir s' = [f].
Proof.
  intros Hs H. unfold op_receive in H. rewrite Hs in H. cbn [negb andb] in H.
  apply apply_done in H. destruct H as [_ [_ [_ Ed]]]. exact Ed.
Qed.

Theorem receive_rejects s f :
  is_snapshot f = false -> extends_pos s f = false -> op_receive s f = (Failed, s).
Proof. intros H1 H2. unfold op_receive. rewrite H1, H2. reflexivity. Qed.
Theorem forward_rejects s f ok :
  extends_pos s f = false -> op_forward s f ok = (Failed, s).
Proof. intros H2. unfold op_forward. rewrite H2. reflexivity. Qed.
Theorem forward_rejects_corrupt s f : op_forward s f false = (Failed, s).
Proof. unfold op_forward. destruct (negb (extends_pos s f)); reflexivity. Qed.
Theorem forward_whole_db_only_at_zero s f ok s' :
  is_snapshot f = true -> op_forward s f ok = (Done, s') -> txid s = 0 /\ l_pre f = chk s.
Proof.
  intros Hs H. unfold op_forward in H. destruct (extends_pos s f) eqn:E; cbn [negb] in H; [|discriminate].
  apply extends_pos_spec in E. apply N.eqb_eq in Hs. split; [lia|apply E].
Qed.
Lemma forward_accepts_spec s f ok : forward_accepts (txid s) (chk s) (l_min f) (l_pre f) = 0 -> op_forward s f ok = (Failed, s).
Proof.
  unfold forward_accepts. intros H. apply forward_rejects. unfold extends_pos.
  destruct ((l_min f =? txid s + 1) && (l_pre f =? chk s)); [discriminate|reflexivity].
Qed.

Theorem receive_checked_rejects_corrupt s f : op_receive_checked s f false = (Failed, s).
Proof. unfold op_receive_checked. destruct (negb (is_snapshot f) && negb (extends_pos s f)); reflexivity. Qed.
Theorem receive_checked_rejects_nonextending s f ok :
  is_snapshot f = false -> extends_pos s f = false -> op_receive_checked s f ok = (Failed, s).
Proof. intros H1 H2. unfold op_receive_checked. rewrite H1, H2. reflexivity. Qed.

(* import: the image becomes the next transaction file, which is then applied *)
Definition import_file (s : st) (pages : list (N * pg)) (commit : N) : ltxrec :=
  mkLtx (txid s + 1) (txid s + 1) (chk s) (if commit =? 0 then 0 else import_post (lockpg s) pages) commit
        (filter (fun kv => negb (fst kv =? lockpg s)) pages).
Definition import_start (s : st) (pages : list (N * pg)) (commit : N) : st :=
  with_dirty (with_wal (with_dir s (ltxdir s ++ [import_file s pages commit])) [] [] []) [].

Lemma op_import_inv s pages commit ok s' : op_import s pages commit ok = (Done, s') ->
  writeable s = true /\ ok = true /\ op_apply (import_start s pages commit) (import_file s pages commit) true = (Done, s').
Proof.
  unfold op_import. destruct (writeable s); cbn [negb]; [|discriminate]. destruct ok; cbn [negb]; [|discriminate]. auto.
Qed.

Theorem chain_import s pages commit ok s' : Chain s -> op_import s pages commit ok = (Done, s') -> Chain s'.
Proof.
  intros HC H. destruct (op_import_inv s pages commit ok s' H) as [_ [_ Ha]].
  apply apply_done in Ha. destruct Ha as [Et [Ec [_ Ed]]].
  exact (chain_append s s' (import_file s pages commit) HC Ed eq_refl eq_refl Et Ec).
Qed.

Definition removable (old : ltxrec -> bool) (backup : bool) (hwm : N) (f : ltxrec) : bool :=
  old f && (negb backup || (l_max f <? hwm)).

Lemma retention_snoc old backup hwm f : forall d,
  retention (d ++ [f]) old backup hwm = filter (fun g => negb (removable old backup hwm g)) d ++ [f].
Proof.
  induction d as [|a d IH]; [reflexivity|]. cbn [app filter retention]. rewrite IH.
  destruct (d ++ [f]) eqn:E; [destruct d; discriminate|]. fold (removable old backup hwm a).
  destruct (removable old backup hwm a); reflexivity.
Qed.

Lemma retention_in old backup hwm d f x :
  In x (retention (d ++ [f]) old backup hwm) <-> In x d /\ removable old backup hwm x = false \/ x = f.
Proof. rewrite retention_snoc, in_app_iff, filter_In, negb_true_iff. cbn [In]. intuition. Qed.

Lemma retention_keeps old backup hwm f d : In f d -> removable old backup hwm f = false -> In f (retention d old backup hwm).
Proof.
  intros Hin Hk. destruct (exists_last (l := d)) as [d' [x ->]]; [intros ->; destruct Hin|].
  apply retention_in. apply in_app_iff in Hin. cbn [In] in Hin. intuition.
Qed.

Theorem retention_respects_hwm old hwm f d :
  In f d -> hwm <= l_max f -> In f (retention d old true hwm).
Proof.
  intros Hin Hh. apply retention_keeps; [assumption|]. unfold removable. cbn [negb orb].
  destruct (N.ltb_spec (l_max f) hwm); [lia|]. apply andb_false_r.
Qed.

Lemma retention_subset old backup hwm f : forall d, In f (retention d old backup hwm) -> In f d.
Proof.
  intros d Hin. destruct d as [|a d0]; [exact Hin|]. destruct (exists_last (l := a :: d0)) as [d' [x E]]; [discriminate|].
  rewrite E in *. apply retention_in in Hin. apply in_app_iff. cbn [In]. intuition.
Qed.

Theorem retention_keeps_newest old backup hwm d z :
  d <> [] -> last (retention d old backup hwm) z = last d z.
Proof. intros Hne. destruct (exists_last Hne) as [d' [x ->]]. rewrite retention_snoc, !last_last. reflexivity. Qed.

(* when removability is downward closed along the directory order (modification times do not
   decrease with the TXID, the high-water mark is a TXID bound), a sweep removes a prefix *)
Definition prefix_closed (rem : ltxrec -> bool) (d : list ltxrec) : Prop :=
  forall d1 f d2, d = d1 ++ f :: d2 -> rem f = false -> forall g, In g d2 -> rem g = false.

Lemma filter_all {A} (p : A -> bool) : forall l, (forall x, In x l -> p x = true) -> filter p l = l.
Proof.
  induction l as [|a l IH]; intros H; [reflexivity|]. cbn [filter]. rewrite (H a) by (left; reflexivity).
  f_equal. apply IH. intros x Hx. apply H. right. exact Hx.
Qed.

Lemma kept_is_suffix rem : forall d d2, prefix_closed rem (d ++ d2) ->
  exists d0, d = d0 ++ filter (fun g => negb (rem g)) d.
Proof.
  induction d as [|a d IH]; intros d2 Hpc; [exists []; reflexivity|]. cbn [filter]. destruct (rem a) eqn:Er; cbn [negb].
  - destruct (IH d2) as [d0 E].
    + intros d1 x d3 E Hx. apply (Hpc (a :: d1) x d3); [cbn [app]; congruence|assumption].
    + exists (a :: d0). cbn [app]. congruence.
  - exists []. cbn [app]. f_equal. symmetry. apply filter_all. intros x Hx. apply negb_true_iff.
    apply (Hpc [] a (d ++ d2) eq_refl Er). apply in_or_app. left. exact Hx.
Qed.

Theorem chain_retention s old backup hwm s' :
  Chain s -> prefix_closed (removable old backup hwm) (ltxdir s) ->
  op_retention s old backup hwm = (Done, s') -> Chain s'.
Proof.
  intros [Hl He] Hpc H. inversion H; subst s'. unfold Chain. cbn [ltxdir txid chk with_dir].
  destruct (ltxdir s) as [|a d0] eqn:Ed; [split; assumption|].
  destruct (exists_last (l := a :: d0)) as [d [f E]]; [discriminate|]. rewrite E in *.
  rewrite retention_snoc. split; [|apply ends_at_snoc; apply ends_at_snoc in He; exact He].
  destruct (kept_is_suffix _ d [f] Hpc) as [d0' E0]. rewrite E0, <- app_assoc in Hl. exact (linked_app_r _ _ Hl).
Qed.

(* restart: the position is re-derived from the newest file *)
Theorem chain_open s s' : linked (ltxdir s) -> op_open s = (Done, s') -> Chain s'.
Proof.
  intros Hl H. unfold op_open in H.
  destruct (match file_hdr s with Some (n, w) => (n, w) | None => (0, false) end) as [pN0 wal0].
  destruct (op_checkpoint _) as [o1 s1] eqn:Eck. destruct (pos_checkpoint _ o1 s1 Eck) as [_ [_ Ed1]].
  destruct (match file_hdr s1 with Some (n, w) => (n, w) | None => (0, false) end) as [pN1 wal1].
  cbn zeta in H. cbn [ltxdir] in H, Ed1. rewrite Ed1 in H.
  unfold Chain, ends_at. destruct (rev (ltxdir s)) as [|f l] eqn:Er.
  - inversion H; subst s'. cbn [ltxdir txid chk]. rewrite Er. auto.
  - apply apply_done in H. destruct H as [Et [Ec [_ Ed]]]. cbn [ltxdir] in Ed. rewrite Ed, Er. auto.
Qed.

(* the operations that publish nothing *)
Definition keeps_pos (o : op) : Prop :=
  match o with
  | OWrite _ _ | OWriteJ _ _ | OZeroFill _ _ | OTruncate _ | OInvalidateJournal | OCommitJournalFail _
  | OWalHeader | OWalTruncate | OCheckpoint | OSetWriteable _ => True
  | _ => False
  end.
Lemma keeps_pos_step s o oc s' : step s o = (oc, s') -> keeps_pos o -> txid s' = txid s /\ chk s' = chk s /\ ltxdir s' = ltxdir s.
Proof.
  intros H. destruct o; cbn [keeps_pos]; try contradiction; intros _; cbn [step] in H;
    try (inversion H; auto; fail).
  - unfold op_write_page in H. destruct (negb (writeable s)), (wal_mode s); inversion H; auto.
  - apply (truncate_spec s n s' oc H).
  - exact (pos_checkpoint s oc s' H).
  - unfold op_write_page_j in H. destruct (negb (writeable s)); inversion H; auto.
Qed.

Definition ok_op (s : st) (o : op) : Prop :=
  match o with
  | ORetention ages backup hwm =>
      let tagged := combine (map l_max (ltxdir s)) ages in
      prefix_closed (removable (fun f => match alookup (l_max f) tagged with Some b => b | None => false end) backup hwm) (ltxdir s)
  | _ => True
  end.

Theorem chain_step s o s' : Chain s -> ok_op s o -> step s o = (Done, s') -> Chain s'.
Proof.
  intros HC Hok H. destruct o; try exact (chain_pos s s' HC (keeps_pos_step s _ Done s' H I)); cbn [step] in H.
  - destruct (writeable s && (pageN s =? 0) && match dbfile s with [] => true | _ => false end);
      [inversion H; subst; exact HC|exact (chain_commit_journal s commit s' HC H)].
  - exact (chain_commit_wal s frames commit s' HC H).
  - exact (chain_open s s' (proj1 HC) H).
  - exact (chain_drop s s' HC H).
  - exact (chain_receive s f s' HC H).
  - exact (chain_retention s _ backup hwm s' HC Hok H).
  - exact (chain_import s pages commit ok s' HC H).
Qed.

Lemma chain_init lock : Chain (init lock).
Proof. unfold Chain, init. cbn. split; [exact I|reflexivity]. Qed.

Lemma run_group_keeps_pos ops s s' : Forall keeps_pos ops -> run_group s ops = (0, s') ->
  txid s' = txid s /\ chk s' = chk s /\ ltxdir s' = ltxdir s.
Proof.
  intros Hq. apply (run_group_ind (fun x => txid x = txid s /\ chk x = chk s /\ ltxdir x = ltxdir s) keeps_pos); [|exact Hq|auto].
  intros s0 o s1 Ho [A [B C]] E. destruct (keeps_pos_step s0 o Done s1 E Ho) as [A' [B' C']]. repeat split; congruence.
Qed.

(* all histories: as long as every operation completes and retention sweeps see monotone ages *)
Fixpoint run_ops (s : st) (ops : list op) : option st :=
  match ops with
  | [] => Some s
  | o :: r => match step s o with (Done, s') => run_ops s' r | _ => None end
  end.
Fixpoint all_ok (s : st) (ops : list op) : Prop :=
  match ops with
  | [] => True
  | o :: r => ok_op s o /\ match step s o with (Done, s') => all_ok s' r | _ => True end
  end.
Theorem chain_invariant lock ops s : all_ok (init lock) ops -> run_ops (init lock) ops = Some s -> Chain s.
Proof.
  generalize (chain_init lock). generalize (init lock). intros s0 HC. revert s0 HC.
  induction ops as [|o r IH]; intros s0 HC Hok H; cbn [run_ops all_ok] in *.
  - inversion H; subst. exact HC.
  - destruct Hok as [Ho Hr]. destruct (step s0 o) as [oc s1] eqn:Es. destruct oc; try discriminate.
    apply (IH s1); [eapply chain_step; eassumption|assumption|assumption].
Qed.

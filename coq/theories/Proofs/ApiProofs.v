(* C20: invalid API requests have no effect; effects need authority. *)
From Coq Require Import NArith List.
Require Import LF.Model.Api.
Import ListNotations.
Local Open Scope N_scope.

Definition status_ok (n : N) : bool := existsb (N.eqb n) [200; 400; 404; 405; 409; 426; 500; 503].

(* one row per effect: what the request must have been, and the status it got; a request without effect is answered
   with one of the eight statuses, and with 200 only if it is valid or releases a lock that is not held *)
Definition effect_row (q : req) (r : N * effect) : Prop :=
  match snd r with
  | ENone => status_ok (fst r) = true /\
             (invalid q = true -> 400 <= fst r \/ (q_path q = PHalt /\ q_meth q = MDelete /\ fst r = 200))
  | EHaltAcquire =>
    q_path q = PHalt /\ q_meth q = MPost /\ q_role q = RPrimary /\ q_self q = false /\ (q_id q = IdOther \/ q_id q = IdHeld) /\
    (q_name q = NmUnknown \/ (q_name q = NmKnown /\ q_halted q = false)) /\ fst r = 200
  | EHaltRelease =>
    q_path q = PHalt /\ q_meth q = MDelete /\ q_self q = false /\ q_name q = NmKnown /\ q_halted q = true /\ q_id q = IdHeld /\ fst r = 200
  | EApplyTx =>
    q_path q = PTx /\ q_meth q = MPost /\ q_role q = RPrimary /\ q_name q = NmKnown /\ q_halted q = true /\ q_id q = IdHeld /\
    q_self q = false /\ q_body q = true /\ fst r = 200
  | EStop =>
    q_path q = PTx /\ q_meth q = MPost /\ q_role q = RPrimary /\ q_name q = NmKnown /\ q_halted q = true /\ q_id q = IdHeld /\
    q_self q = false /\ q_body q = false /\ q_poison q = true /\ fst r = 500
  | EImport =>
    q_path q = PImport /\ q_meth q = MPost /\ q_role q = RPrimary /\ (q_name q = NmKnown \/ q_name q = NmUnknown) /\
    q_body q = true /\ fst r = 200
  | ECreateDB =>
    q_path q = PImport /\ q_meth q = MPost /\ q_role q = RPrimary /\ q_name q = NmUnknown /\ q_body q = false /\ fst r = 500
  | EHandoff => q_path q = PHandoff /\ q_meth q = MPost /\ q_role q = RPrimary /\ q_node q = NdConnected /\ fst r = 200
  | EPromote => False
  end.

(* [respond] picks a handler by endpoint and method, and a handler is a cascade of tests on a few fields: one bullet per
   handler, splitting on the fields it reads in the order it reads them.  Once the response is decided [row] closes the row. *)
Ltac none_row :=
  split; [reflexivity|intros H; first [discriminate H|left; discriminate|right; repeat split; reflexivity]].
Ltac effect_row_holds := repeat split; auto.
Ltac row := solve [cbn; first [none_row|effect_row_holds]].
Ltac sp x := destruct x; try row.

Lemma effect_table q : effect_row q (respond q).
Proof.
  destruct q as [ro pa me nm id nd sf h2 bd ha po]. unfold effect_row, respond.
  cbn [q_path q_meth]. destruct pa, me; try row.
  - unfold handle_export. cbn [q_name]. sp nm.
  - unfold handle_post_halt, id_unparsable, is_primary, holds_lock. cbn [q_id q_self q_role q_name q_halted].
    sp id; sp sf; sp ro; sp nm; sp ha.
  - unfold handle_delete_halt, id_unparsable, name_is_known, holds_lock. cbn [q_id q_self q_name q_halted].
    sp id; sp sf; sp nm; sp ha.
  - unfold handle_handoff, is_primary. cbn [q_node q_role]. sp nd; sp ro.
  - unfold handle_import, is_primary. cbn [q_name q_role q_body]. sp nm; sp ro; sp bd.
  - (* the only node that would ask for the lease is the replica, which is not a candidate *)
    unfold handle_promote, is_candidate. cbn [q_role]. sp ro.
  - unfold handle_stream, is_primary. cbn [q_h2 q_self q_role q_body]. sp h2; sp sf; sp ro; sp bd.
  - unfold handle_tx, name_is_known, id_unparsable, is_primary, holds_lock. cbn [q_self q_name q_id q_role q_halted q_body q_poison].
    sp sf; sp nm; sp id; sp ro; sp ha; sp bd; sp po.
Qed.

Lemma respond_status q : In (fst (respond q)) [200; 400; 404; 405; 409; 426; 500; 503].
Proof.
  assert (H : status_ok (fst (respond q)) = true).
  { pose proof (effect_table q) as T. unfold effect_row in T.
    destruct (snd (respond q)); [exact (proj1 T)|..]; try contradiction;
      decompose [and] T; match goal with E : fst (respond q) = _ |- _ => rewrite E end; reflexivity. }
  apply existsb_exists in H. destruct H as [x [Hin Hx]]. apply N.eqb_eq in Hx. rewrite Hx. exact Hin.
Qed.

Lemma apply_needs_holder q : snd (respond q) = EApplyTx ->
  q_path q = PTx /\ q_meth q = MPost /\ q_role q = RPrimary /\ q_name q = NmKnown /\ q_halted q = true /\ q_id q = IdHeld /\
  q_self q = false /\ q_body q = true.
Proof. intros H. pose proof (effect_table q) as T. unfold effect_row in T. rewrite H in T. tauto. Qed.
Lemma grant_needs_primary_and_free_lock q : snd (respond q) = EHaltAcquire ->
  q_path q = PHalt /\ q_meth q = MPost /\ q_role q = RPrimary /\ q_self q = false /\ (q_id q = IdOther \/ q_id q = IdHeld) /\
  (q_name q = NmUnknown \/ (q_name q = NmKnown /\ q_halted q = false)).
Proof. intros H. pose proof (effect_table q) as T. unfold effect_row in T. rewrite H in T. tauto. Qed.
Lemma release_needs_lock_id q : snd (respond q) = EHaltRelease ->
  q_path q = PHalt /\ q_meth q = MDelete /\ q_name q = NmKnown /\ q_halted q = true /\ q_id q = IdHeld.
Proof. intros H. pose proof (effect_table q) as T. unfold effect_row in T. rewrite H in T. tauto. Qed.
Lemma write_effects_only_on_primary q :
  changes (snd (respond q)) = true -> snd (respond q) <> EHaltRelease -> snd (respond q) <> EPromote -> q_role q = RPrimary.
Proof.
  pose proof (effect_table q) as T. unfold effect_row in T.
  destruct (snd (respond q)); cbn [changes]; intros Hc Hr Hp; try discriminate Hc; try congruence; tauto.
Qed.
Lemma stop_only_when_poisoned q : snd (respond q) = EStop -> tx_poisoned q = true.
Proof.
  intros H. pose proof (effect_table q) as T. unfold effect_row in T. rewrite H in T.
  destruct q. cbn in T. decompose [and] T. subst. reflexivity.
Qed.

(* invalid requests change nothing - with the two exceptions that the code really has: an effectful row of the table
   is a valid request, except the rows of ECreateDB and EStop *)
Lemma invalid_no_effect q : invalid q = true -> import_leftover q = false -> tx_poisoned q = false -> snd (respond q) = ENone.
Proof.
  intros Hi Hl Hp. pose proof (effect_table q) as T. unfold effect_row in T.
  destruct (snd (respond q)); [reflexivity|exfalso..]; try contradiction; destruct q; cbn in T; decompose [and or] T; subst;
    cbn in Hi, Hl, Hp; discriminate.
Qed.

Ltac pin x H := destruct x; cbn in H; try discriminate H.

(* the first exception, exactly: it is an invalid request (unusable body), it is answered 500, and it leaves a database behind *)
Lemma import_leftover_spec q : import_leftover q = true -> invalid q = true /\ respond q = (500, ECreateDB).
Proof.
  destruct q as [ro pa me nm id nd sf h2 bd ha po]. unfold import_leftover. cbn [q_role q_path q_meth q_name q_body].
  intros H. pin pa H; pin me H; pin ro H; pin nm H; pin bd H. split; reflexivity.
Qed.

Lemma tx_poisoned_spec q : tx_poisoned q = true -> invalid q = true /\ respond q = (500, EStop).
Proof.
  destruct q as [ro pa me nm id nd sf h2 bd ha po]. unfold tx_poisoned, name_is_known, id_unparsable, is_primary, holds_lock.
  cbn [q_role q_path q_meth q_name q_id q_self q_body q_halted q_poison].
  intros H. pin pa H; pin me H; pin sf H; pin nm H; pin id H; pin ro H; pin ha H; pin bd H; pin po H. split; reflexivity.
Qed.

Lemma invalid_effect_refuted : exists q, invalid q = true /\ snd (respond q) <> ENone.
Proof.
  exists (mk_req RPrimary PImport MPost NmUnknown IdBad NdBad false false false false false). split; [reflexivity|discriminate].
Qed.

Lemma invalid_refused q : invalid q = true ->
  400 <= fst (respond q) \/ (q_path q = PHalt /\ q_meth q = MDelete /\ respond q = (200, ENone)).
Proof.
  intros Hi. pose proof (effect_table q) as T. unfold effect_row in T. destruct (respond q) as [st e]. cbn [fst snd] in *.
  destruct e; [destruct (proj2 T Hi) as [H|[H1 [H2 ->]]]; auto|..]; try contradiction;
    destruct q; cbn in T; decompose [and or] T; subst; first [cbn in Hi; discriminate Hi|left; discriminate].
Qed.

Lemma repeated_acquire_is_idempotent q :
  q_path q = PHalt -> q_meth q = MPost -> q_role q = RPrimary -> q_self q = false -> q_name q = NmKnown -> q_halted q = true ->
  q_id q = IdHeld -> respond q = (200, ENone).
Proof.
  destruct q as [ro pa me nm id nd sf h2 bd ha po]; cbn [q_role q_path q_meth q_name q_id q_node q_self q_h2 q_body q_halted q_poison].
  intros -> -> -> -> -> -> ->. reflexivity.
Qed.

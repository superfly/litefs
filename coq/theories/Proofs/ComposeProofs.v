(* C04, the histories put together: one invariant [GInv] ([J] with no log, or [WL /\ WK], by journal mode) over rollback-journal
   mode, the switch into WAL mode, WAL mode with every kind of checkpoint, the way back, and restarts anywhere.  Bridges: [jb_j],
   [wl_entry], [wk_entry] enter from [JB]; [wk_jb] leaves WAL mode when the log is empty; [rb_jb] enters from [RB]. *)
From Coq Require Import NArith List Lia.
Require Import LF.Model.PageDB LF.Proofs.ChecksumProofs LF.Proofs.CaptureProofs LF.Proofs.ChainProofs
  LF.Proofs.ApplyProofs LF.Proofs.HistoryProofs LF.Proofs.WalHistoryProofs LF.Proofs.WalCheckpointProofs
  LF.Proofs.SqlCheckpointProofs LF.Proofs.ApplyHistoryProofs LF.Proofs.OpenProofs.
Import ListNotations.
Local Open Scope N_scope.

Lemma wk_jb s v : WL s v -> WK s v -> wpages s = [] ->
  JB s /\ wal_chk s = [] /\ (forall p, 1 <= p <= pageN s -> p <> lockpg s -> file_h s p = v p).
Proof.
  intros HW HK Ep. pose proof (k_empty s v HK Ep) as Hk0.
  assert (Hd : forall p, 1 <= p <= pageN s -> p <> lockpg s -> dbc s p = v p /\ file_h s p = v p).
  { intros p Hp Hnl. apply (wk_not_in_log s v p HW HK Hp Hnl). rewrite Ep. reflexivity. }
  split; [|split; [exact Hk0|intros p Hp Hnl; apply (Hd p Hp Hnl)]].
  destruct HW as [Ww Wm Wl Wc Wz Wv Wt Wk]. constructor; try assumption.
  - intros p Hp Hnl. destruct (Hd p Hp Hnl). congruence.
  - intros p Hp. destruct (Wt p Hp) as [Z|Hx]; [exact Z|]. rewrite Hk0 in Hx. contradiction Hx. reflexivity.
  - intros _. rewrite Wk. apply scratch_ext. intros p Hp. destruct (N.eqb_spec p (lockpg s)); [reflexivity|].
    symmetry. apply (Hd p Hp n).
Qed.

(* the way back out of WAL mode: with the log empty SQLite removes it, rewrites page 1 with the rollback-journal
   versions under a rollback journal (while the header still says WAL), and commits *)
Definition leave_ops (q : pg) (c : N) : list op := [OWalTruncate; OWriteJ 1 q; OCommitJournal c].

Lemma leave_prefix s q : writeable s = true ->
  run_group s [OWalTruncate; OWriteJ 1 q] = (0, write_db_page (with_dirty (with_wal s [] [] []) (insert_sorted 1 (dirty s))) 1 q).
Proof. intros Hw. cbn [run_group step]. unfold op_wal_reset, op_write_page_j. cbn [ocode writeable with_wal]. rewrite Hw. reflexivity. Qed.

Lemma leave_step s v q c s' : WL s v -> WK s v -> wal_file s = [] -> pg_wal q = false ->
  run_group s (leave_ops q c) = (0, s') -> J s' /\ wal_file s' = [] /\ wal_chk s' = [] /\ lockpg s' = lockpg s.
Proof.
  intros HW HK Hf Hq H.
  destruct (wk_jb s v HW HK (wpages_nil_of_file s Hf)) as [HB [Hk _]].
  change (leave_ops q c) with ([OWalTruncate; OWriteJ 1 q] ++ [OCommitJournal c]) in H. rewrite run_group_app in H.
  rewrite (leave_prefix s q (b_w s HB)) in H. apply run_group_one in H.
  set (sa := with_wal s [] [] []) in *.
  set (s1 := write_db_page (with_dirty sa (insert_sorted 1 (dirty sa))) 1 q) in *.
  assert (Hp1 : forall q', file_pg s1 1 = Some q' -> q' = q).
  { unfold s1, file_pg, write_db_page. cbn [dbfile set_page_chk with_file with_dirty]. change (N.to_nat (1 - 1)) with 0%nat.
    intros q' E. destruct (dbfile sa); cbn in E; congruence. }
  (* page 1 is now [q], without the WAL versions: what follows is the end of a transaction that keeps rollback-journal mode *)
  assert (M1 : Mid true sa s1).
  { assert (HBa : JB sa) by (destruct HB; constructor; assumption).
    destruct (mid_write_page false sa sa 1 q (insert_sorted 1 (dirty sa)) (jb_mid false sa HBa ltac:(discriminate)) ltac:(lia) ltac:(discriminate)).
    constructor; try assumption. intros _ q' E. rewrite (Hp1 q' E). exact Hq. }
  destruct (step_commit_cases s1 c s' H) as [[_ [Edb _]]|Hc].
  { unfold s1, write_db_page in Edb. cbn [dbfile set_page_chk with_file with_dirty] in Edb.
    change (N.to_nat (1 - 1)) with 0%nat in Edb. destruct (dbfile sa); discriminate. }
  clear H. rename Hc into H.
  destruct (mid_commit true sa s1 c s' M1 H) as [HB' [_ [_ Hs]]]. destruct (Hs eq_refl) as [Hm Hp'].
  destruct (commit_journal_fields s1 c s' H) as [_ [F2 [_ [F4 F5]]]].
  split; [exact (jb_j s' HB' Hm Hp')|]. split; [exact F5|]. split; [exact F4|]. rewrite F2. apply (m_lock true sa s1 M1).
Qed.

Lemma apply_fields s f fatal s' : op_apply s f fatal = (Done, s') ->
  writeable s' = writeable s /\
  (l_commit f <> 0 -> wal_file s' = wal_file s /\
                      wal_mode s' = match alookup 1 (l_pages f) with Some q => pg_wal q | None => wal_mode s end) /\
  (l_commit f = 0 -> wal_file s' = [] /\ wal_mode s' = false /\ dbfile s' = []).
Proof.
  intros H. split; [apply (apply_keeps s f fatal s' H)|]. destruct (op_apply_inv s f fatal s' H) as [s4 [Eck ->]].
  destruct (checksum_result _ _ _ _ _ Eck) as [HF [Hd _]]. cbn [wal_file wal_mode dbfile with_pos].
  rewrite (fr_wal_file _ _ HF), Hd. unfold apply_pre.
  destruct (N.eqb_spec (l_commit f) 0) as [Ec|Ec]; cbn [wal_file wal_mode dbfile with_pos].
  - split; [intros Hn; contradiction|auto].
  - split; [intros _|intros E0; contradiction]. split; [|reflexivity].
    exact (fr_wal_file _ _ (frame_trans _ _ _ (frame_fold_write (l_pages f) s) (frame_truncate_db _ (l_commit f)))).
Qed.
Lemma apply_wal_file s f fatal s' : op_apply s f fatal = (Done, s') -> wal_file s = [] -> wal_file s' = [].
Proof.
  intros H Hf. destruct (apply_fields s f fatal s' H) as [_ [F1 F0]].
  destruct (N.eq_dec (l_commit f) 0) as [Ec|Ec]; [apply (F0 Ec)|]. destruct (F1 Ec) as [A _]. congruence.
Qed.

Definition ModeIsPage1 (s : st) : Prop := forall q, file_pg s 1 = Some q -> wal_mode s = pg_wal q.

Lemma apply_page1_cases s f fatal s' q : op_apply s f fatal = (Done, s') -> wf_ltx f ->
  (dbfile s <> [] \/ alookup 1 (l_pages f) <> None) -> file_pg s' 1 = Some q ->
  (alookup 1 (l_pages f) = Some q /\ wal_mode s' = pg_wal q) \/
  (alookup 1 (l_pages f) = None /\ file_pg s 1 = Some q /\ wal_mode s' = wal_mode s).
Proof.
  intros H [Hpos Hnd] Hex Hq. destruct (apply_fields s f fatal s' H) as [_ [F1 F0]].
  destruct (N.eq_dec (l_commit f) 0) as [Ec|Ec].
  { destruct (F0 Ec) as [_ [_ Ed]]. unfold file_pg in Hq. rewrite Ed in Hq. destruct (N.to_nat (1 - 1)); discriminate. }
  destruct (F1 Ec) as [_ Em]. rewrite Em.
  assert (Hk : forall kv, In kv (l_pages f) -> 1 <= fst kv) by (intros [p0 q0] Hin; apply (Hpos p0 q0 Hin)).
  destruct (apply_file s f fatal s' H ltac:(lia) Hk Hnd) as [A [B _]].
  destruct (alookup 1 (l_pages f)) as [q1|] eqn:E1.
  - left. apply alookup_in in E1. rewrite (A 1 q1 E1 ltac:(lia)) in Hq. inversion Hq; subst. auto.
  - right. destruct Hex as [Hne|Hc]; [|contradiction Hc; reflexivity].
    assert (~ In 1 (map fst (l_pages f))) as Hnin.
    { intros Hin. apply in_map_iff in Hin. destruct Hin as [[k qk] [Ek Hin]]. cbn [fst] in Ek. subst k.
      apply (in_alookup_nodup 1 qk _ Hnd) in Hin. congruence. }
    rewrite (B 1 ltac:(lia) Hnin) in Hq; [auto|].
    unfold lenN. destruct (dbfile s); [contradiction|]. cbn [length]. lia.
Qed.

Lemma apply_page1 s f fatal s' : op_apply s f fatal = (Done, s') -> wf_ltx f -> ModeIsPage1 s ->
  (dbfile s <> [] \/ alookup 1 (l_pages f) <> None) -> ModeIsPage1 s'.
Proof.
  intros H Hwf HM Hex q Hq.
  destruct (apply_page1_cases s f fatal s' q H Hwf Hex Hq) as [[_ Em]|[_ [Hq0 Em]]]; rewrite Em; [reflexivity|exact (HM q Hq0)].
Qed.

Lemma open_recomputed_misc s :
  writeable (open_recomputed s) = writeable s /\ wal_file (open_recomputed s) = [] /\ ModeIsPage1 (open_recomputed s).
Proof.
  destruct (open_recomputed_keeps s) as [Ew [_ [_ [_ [Ef _]]]]]. split; [exact Ew|]. split; [exact Ef|].
  rewrite open_recomputed_shape. generalize (snd (op_checkpoint (open_s0 s))). intros s1 q Hq. unfold open_rebuilt in *.
  destruct (match file_hdr s1 with Some (n, w) => (n, w) | None => (0, false) end) as [pN1 wal1] eqn:Eh.
  unfold file_pg in Hq. cbn [dbfile wal_mode] in *. change (N.to_nat (1 - 1)) with 0%nat in Hq.
  unfold file_hdr in Eh. destruct (dbfile s1) as [|p0 r0]; [discriminate|]. cbn in Hq. inversion Hq; subst. inversion Eh; subst. reflexivity.
Qed.

Definition GInv (s : st) (v : N -> N) : Prop :=
  if wal_mode s then WL s v /\ WK s v else J s /\ wal_file s = [] /\ wal_chk s = [].

Lemma ginv_j s v : GInv s v -> wal_mode s = false -> J s /\ wal_file s = [] /\ wal_chk s = [].
Proof. unfold GInv. intros H E. rewrite E in H. exact H. Qed.
Lemma ginv_w s v : GInv s v -> wal_mode s = true -> WL s v /\ WK s v.
Proof. unfold GInv. intros H E. rewrite E in H. exact H. Qed.
Lemma ginv_init lock : 1 <= lock -> GInv (init lock) (fun _ => 0).
Proof. intros Hl. unfold GInv. cbn [wal_mode init]. split; [apply j_init; exact Hl|split; reflexivity]. Qed.

(* the position's checksum when the logical database is the file (right after a restart, an apply or an import) *)
Lemma ginv_file_chk s : GInv s (file_h s) -> txid s <> 0 ->
  chk s = scratch (fun p => if p =? lockpg s then 0 else file_h s p) (pageN s).
Proof.
  intros HI Ht. destruct (wal_mode s) eqn:Em.
  - exact (w_chk s _ (proj1 (ginv_w s _ HI Em))).
  - exact (j_chk s (proj1 (ginv_j s _ HI Em)) Ht).
Qed.

Lemma ginv_basic s v : GInv s v -> 1 <= lockpg s /\ writeable s = true.
Proof.
  unfold GInv. destruct (wal_mode s); intros [A _]; [destruct A|destruct A]; auto.
Qed.

Lemma ginv_wpages s v : GInv s v ->
  (forall p q, In (p, q) (wpages s) -> 1 <= p) /\ KeysNoDup (wpages s) /\ (wpages s <> [] -> snd (wscan s) = pageN s).
Proof.
  intros HI. destruct (wal_mode s) eqn:Em.
  - destruct (ginv_w s v HI Em) as [_ HK]. split; [exact (k_pos s v HK)|]. split; [exact (k_nodup s v HK)|exact (k_last s v HK)].
  - destruct (ginv_j s v HI Em) as [_ [Hf _]]. rewrite (wpages_nil_of_file s Hf).
    split; [intros p q []|]. split; [constructor|intros Hn; contradiction].
Qed.

Lemma rb_jb s : RB s -> writeable s = true ->
  (txid s <> 0 -> chk s = scratch (fun p => if p =? lockpg s then 0 else file_h s p) (pageN s)) -> JB s.
Proof.
  intros [A B C D E F] Hw Hc. constructor; try assumption.
  - intros p Hp Hnl. apply E; [lia|assumption].
  - intros p Hp. apply (F p Hp).
Qed.

Lemma applied_ginv s f fatal s' :
  1 <= lockpg s -> writeable s = true -> CacheOK s -> LockZero s -> wal_chk s = [] -> wal_file s = [] -> wf_file f ->
  (forall x, 1 <= x <= l_commit f -> x <> lockpg s -> alookup x (l_pages f) = None -> dbc s x = file_h s x) ->
  (wal_mode s = false -> forall q, file_pg s 1 = Some q -> pg_wal q = false) ->
  (dbfile s <> [] \/ alookup 1 (l_pages f) <> None) ->
  op_apply s f fatal = (Done, s') -> GInv s' (file_h s') /\ lockpg s' = lockpg s.
Proof.
  intros Hlk Hw HC HL Hk Hf [Hwf Hmax] Ht Hp1 Hex H.
  destruct (apply_core s f fatal s' Hlk HC HL Hk Hwf Ht H) as [HR [El [Et [_ [_ Hc]]]]].
  pose proof (apply_wal_file s f fatal s' H Hf) as Hf'.
  assert (HB : JB s') by (apply (rb_jb s' HR); [rewrite (proj1 (apply_fields s f fatal s' H)); exact Hw|intros _; exact Hc]).
  split; [|exact El]. unfold GInv. destruct (wal_mode s') eqn:Em.
  - split; [apply wl_entry; [exact HB|exact Em|apply (r_nowal s' HR)|congruence]|].
    apply wk_entry; [exact HB|exact Hf'|apply (r_nowal s' HR)].
  - split; [|split; [exact Hf'|apply (r_nowal s' HR)]]. apply (jb_j s' HB Em). intros q Hq.
    destruct (apply_page1_cases s f fatal s' q H Hwf Hex Hq) as [[_ E]|[_ [Hq0 E]]]; [congruence|].
    apply (Hp1 ltac:(congruence) q Hq0).
Qed.

Definition wf_restart (s : st) : Prop :=
  exists f rest, rev (ltxdir s) = f :: rest /\ wf_file f /\
    (forall x, pageN (open_recomputed s) < x <= l_commit f -> x <> lockpg s -> alookup x (l_pages f) <> None) /\
    (dbfile (open_recomputed s) <> [] \/ alookup 1 (l_pages f) <> None).

Lemma restart_step s s' : 1 <= lockpg s -> writeable s = true -> wf_restart s -> op_open s = (Done, s') ->
  GInv s' (file_h s') /\ lockpg s' = lockpg s.
Proof.
  intros Hlk Hw [f [rest [Hr [Hwf [Hg Hex]]]]] H.
  rewrite op_open_eq, ltxdir_open_recomputed, Hr in H.
  destruct (open_recomputed_facts s Hlk) as [El [HC [HL [Hk [_ Ht]]]]]. cbn zeta in *.
  destruct (open_recomputed_misc s) as [Ow [Of Om]].
  rewrite <- El. rewrite <- El in Hlk. rewrite <- Ow in Hw.
  apply (applied_ginv _ f false s' Hlk Hw HC HL Hk Of Hwf); [| |exact Hex|exact H].
  - intros x Hx Hnl Hnone. rewrite El in Hnl. apply Ht; [|assumption].
    destruct (N.le_gt_cases x (pageN (open_recomputed s))); [lia|]. destruct (Hg x ltac:(lia) Hnl Hnone).
  - intros Em q Hq. rewrite <- (Om q Hq). exact Em.
Qed.

(* a file from the stream (the node is a replica for the moment): refused, or placed and applied *)
Definition wf_recv (s : st) (f : ltxrec) : Prop :=
  wf_file f /\
  (forall x, pageN s < x <= l_commit f -> x <> lockpg s -> alookup x (l_pages f) <> None) /\
  (wal_mode s = true -> wal_file s = []) /\                       (* in WAL mode: after a checkpoint *)
  (dbfile s <> [] \/ alookup 1 (l_pages f) <> None).
Definition refused (s : st) (f : ltxrec) : bool := negb (is_snapshot f) && negb (extends_pos s f).

Lemma ginv_nolog s v : GInv s v -> (wal_mode s = true -> wal_file s = []) ->
  JB s /\ wal_chk s = [] /\ wal_file s = [] /\ (wal_mode s = false -> forall q, file_pg s 1 = Some q -> pg_wal q = false).
Proof.
  unfold GInv. destruct (wal_mode s) eqn:Em; intros HI Hwm.
  - destruct HI as [HW HK]. pose proof (Hwm eq_refl) as Hf.
    destruct (wk_jb s v HW HK (wpages_nil_of_file s Hf)) as [HB [Hk _]]. split; [exact HB|]. split; [exact Hk|]. split; [exact Hf|discriminate].
  - destruct HI as [HJ [Hf Hk]]. split; [destruct HJ; constructor; assumption|]. split; [exact Hk|]. split; [exact Hf|].
    intros _. apply (j_p1 s HJ).
Qed.

Lemma applied_step s v f s' : GInv s v -> wf_recv s f -> applied_to s f s' -> GInv s' (file_h s') /\ lockpg s' = lockpg s.
Proof.
  intros HI [Hwf [Hg [Hwm Hex]]] H. destruct (ginv_nolog s v HI Hwm) as [HB [Hk [Hf Hp1]]].
  set (d := if is_snapshot f then [f] else ltxdir s ++ [f]) in *.
  apply (applied_ginv (with_dir s d) f true s' (b_lk1 s HB) (b_w s HB) (b_cache s HB) (b_lz s HB) Hk Hf Hwf); [|exact Hp1|exact Hex|exact H].
  intros x Hx Hnl Hnone. destruct (N.le_gt_cases x (pageN s)) as [Hle|Hgt].
  - apply (b_truth s HB); [lia|exact Hnl].
  - destruct (Hg x ltac:(lia) Hnl Hnone).
Qed.

Lemma recv_step s v f oc s' : GInv s v -> wf_recv s f -> op_receive s f = (oc, s') -> oc = Done \/ oc = Failed ->
  GInv s' (if refused s f then v else file_h s') /\ lockpg s' = lockpg s.
Proof.
  intros HI Hwf H Hoc. unfold op_receive in H. fold (refused s f) in H. destruct (refused s f).
  { inversion H; subst. split; [exact HI|reflexivity]. }
  destruct Hoc as [->| ->]; [exact (applied_step s v f s' HI Hwf H)|destruct (apply_fatal_not_failed _ _ _ H)].
Qed.

(* a transaction forwarded by a replica that holds the halt lock (handlePostTx) has to continue the position and its body
   has to verify; then it is placed and applied like a file from the stream *)
Definition fwd_refused (s : st) (f : ltxrec) (body_ok : bool) : bool := negb (extends_pos s f) || negb body_ok.

Lemma ginv_cache s v : GInv s v -> CacheOK s /\ LockZero s.
Proof. unfold GInv. destruct (wal_mode s); intros [A _]; destruct A; auto. Qed.

Lemma drop_step s v s' : GInv s v -> op_drop s = (Done, s') -> GInv s' (file_h s') /\ lockpg s' = lockpg s.
Proof.
  intros HI H. destruct (ginv_basic s v HI) as [Hlk Hw]. destruct (op_drop_inv s s' H) as [_ ->]. clear H.
  split; [|reflexivity]. unfold GInv, dropped. cbn [wal_mode with_pos].
  split; [|split; reflexivity]. constructor; cbn [writeable wal_mode lockpg pageN txid chk with_pos with_wal]; try assumption; try reflexivity.
  - intros b Hb. unfold lenN in Hb. cbn in Hb. lia.
  - unfold LockZero, dbc, db_page_chk, nthN. cbn. destruct (N.to_nat (lockpg s - 1)); reflexivity.
  - intros p Hp. lia.
  - intros p _. unfold dbc, db_page_chk, nthN. cbn. destruct (N.to_nat (p - 1)); reflexivity.
  - intros q Hq. unfold file_pg in Hq. cbn in Hq. destruct (N.to_nat (1 - 1)); discriminate.
Qed.

(* an import: a whole database image replaces the database *)
Definition wf_import (s : st) (pages : list (N * pg)) (commit : N) : Prop :=
  (forall p q, In (p, q) pages -> 1 <= p) /\ KeysNoDup pages /\ commit <> 0 /\ lockpg s <> 1 /\
  (forall x, 1 <= x <= commit -> alookup x pages <> None).

Lemma import_step s v pages commit s' : GInv s v -> wf_import s pages commit ->
  op_import s pages commit true = (Done, s') -> GInv s' (file_h s') /\ lockpg s' = lockpg s.
Proof.
  intros HI [Hpos [Hnd [Hc0 [Hl1 Hcov]]]] H. destruct (ginv_basic s v HI) as [Hlk Hw]. destruct (ginv_cache s v HI) as [HC HL].
  destruct (op_import_inv s pages commit true s' H) as [_ [_ Ha]].
  assert (Hlook : forall x, 1 <= x <= commit -> x <> lockpg s -> alookup x (l_pages (import_file s pages commit)) <> None).
  { intros x Hx Hnl. cbn [l_pages import_file]. rewrite (alookup_filter_key (fun k => negb (k =? lockpg s)) x pages).
    destruct (N.eqb_spec x (lockpg s)); [contradiction|exact (Hcov x Hx)]. }
  apply (applied_ginv (import_start s pages commit) (import_file s pages commit) true s' Hlk Hw HC HL eq_refl eq_refl); [| | |right; apply Hlook; [lia|congruence]|exact Ha].
  - split; [split|cbn [l_max import_file]; lia].
    + intros p q Hin. apply filter_In in Hin. apply (Hpos p q). tauto.
    + apply keys_filter. exact Hnd.
  - intros x Hx Hnl Hnone. destruct (Hlook x Hx Hnl Hnone).
  - intros Em q Hq. exact (j_p1 s (proj1 (ginv_j s v HI Em)) q Hq).
Qed.

Inductive gstep :=
| GJ (h : hstep)                                    (* rollback-journal mode: a transaction that keeps the mode; the truncate *)
| GSwitch (zf : list (N * pg)) (acts : list act) (c : N)   (* the transaction that takes the database into WAL mode *)
| GW (o : wop2)                                     (* WAL mode: a commit, a checkpoint of any kind *)
| GLeave (q : pg) (c : N)                           (* the way back: the log removed, page 1 rewritten under a rollback journal *)
| GRestart                                          (* LiteFS restarts: Open *)
| GRecv (f : ltxrec)                                (* a transaction file arrives on the stream: refused, or applied *)
| GForward (f : ltxrec) (body_ok : bool)            (* a replica holding the halt lock forwards a transaction *)
| GDrop                                             (* the database is dropped *)
| GImport (pages : list (N * pg)) (commit : N).     (* a database image is imported over whatever is there *)
Definition grun (s : st) (g : gstep) : option st :=
  match g with
  | GJ h => match run_group s (hops s h) with (0, s') => Some s' | _ => None end
  | GSwitch zf acts c => match run_group s (hops s (HTx zf acts c)) with (0, s') => Some s' | _ => None end
  | GW o => match run_group s (wop2_ops s o) with (0, s') => Some s' | _ => None end
  | GLeave q c => match run_group s (leave_ops q c) with (0, s') => Some s' | _ => None end
  | GRestart => match op_open s with (Done, s') => Some s' | _ => None end
  | GRecv f => match op_receive s f with (Done, s') | (Failed, s') => Some s' | _ => None end
  | GForward f ok => match op_forward s f ok with (Done, s') | (Failed, s') => Some s' | _ => None end
  | GDrop => match op_drop s with (Done, s') => Some s' | _ => None end
  | GImport pages commit => match op_import s pages commit true with (Done, s') => Some s' | _ => None end
  end.
(* the logical database after the step: in WAL mode the overlay; otherwise the file *)
Definition gview (s s' : st) (g : gstep) (v : N -> N) : N -> N :=
  match g with
  | GW o => wop2_view (lockpg s) o v
  | GRecv f => if refused s f then v else file_h s'
  | GForward f ok => if fwd_refused s f ok then v else file_h s'
  | _ => file_h s'
  end.
Definition wf_gstep (s : st) (g : gstep) : Prop :=
  match g with
  | GJ h => wal_mode s = false /\ wf_step s h
  | GSwitch zf acts c => wal_mode s = false /\ wf_tx_any s zf acts /\
                         forall s', run_group s (hops s (HTx zf acts c)) = (0, s') -> wal_mode s' = true
  | GW o => wal_mode s = true /\ wf_wop2 s o
  | GLeave q c => wal_mode s = true /\ wal_file s = [] /\ pg_wal q = false
  | GRestart => wf_restart s
  | GRecv f => wf_recv s f
  | GForward f _ => wf_recv s f
  | GDrop => True
  | GImport pages commit => wf_import s pages commit
  end.
Fixpoint run_gsteps (s : st) (v : N -> N) (gs : list gstep) : option (st * (N -> N)) :=
  match gs with
  | [] => Some (s, v)
  | g :: r => match grun s g with Some s' => run_gsteps s' (gview s s' g v) r | None => None end
  end.
Fixpoint wf_gsteps (s : st) (gs : list gstep) : Prop :=
  match gs with
  | [] => True
  | g :: r => wf_gstep s g /\ forall s', grun s g = Some s' -> wf_gsteps s' r
  end.

(* a file that is not refused is applied: a failing apply is fatal *)
Lemma grun_inv s g s' : grun s g = Some s' ->
  match g with
  | GJ h => run_group s (hops s h) = (0, s')
  | GSwitch zf acts c => run_group s (hops s (HTx zf acts c)) = (0, s')
  | GW o => run_group s (wop2_ops s o) = (0, s')
  | GLeave q c => run_group s (leave_ops q c) = (0, s')
  | GRestart => op_open s = (Done, s')
  | GRecv f => if refused s f then s' = s else applied_to s f s'
  | GForward f ok => if fwd_refused s f ok then s' = s else applied_to s f s'
  | GDrop => op_drop s = (Done, s')
  | GImport pages commit => op_import s pages commit true = (Done, s')
  end.
Proof.
  destruct g as [h|zf acts c|o|q c| |f|f ok| |pages commit]; cbn [grun].
  1-4: destruct (run_group _ _) as [[|code] s1]; [|discriminate]; intros H; inversion H; reflexivity.
  - destruct (op_open s) as [[] s1]; try discriminate. intros H. inversion H. reflexivity.
  - unfold op_receive, applied_to. fold (refused s f). destruct (refused s f).
    + intros H. inversion H. reflexivity.
    + destruct (op_apply _ f true) as [oc s1] eqn:E. destruct oc; try discriminate; intros H; inversion H; subst s1; [reflexivity|].
      destruct (apply_fatal_not_failed _ _ _ E).
  - unfold op_forward, applied_to, fwd_refused. destruct (extends_pos s f); cbn [negb orb]; [|intros H; inversion H; reflexivity].
    destruct ok; cbn [negb]; [|intros H; inversion H; reflexivity].
    destruct (op_apply _ f true) as [oc s1] eqn:E. destruct oc; try discriminate; intros H; inversion H; subst s1; [reflexivity|].
    destruct (apply_fatal_not_failed _ _ _ E).
  - destruct (op_drop s) as [[] s1]; try discriminate. intros H. inversion H. reflexivity.
  - destruct (op_import s pages commit true) as [[] s1]; try discriminate. intros H. inversion H. reflexivity.
Qed.

Lemma run_gsteps_ind (P : st -> (N -> N) -> Prop) :
  (forall s v g s', P s v -> wf_gstep s g -> grun s g = Some s' -> P s' (gview s s' g v)) ->
  forall gs s v s' v', P s v -> wf_gsteps s gs -> run_gsteps s v gs = Some (s', v') -> P s' v'.
Proof.
  intros Hstep. induction gs as [|g r IH]; intros s v s' v' HP Hwf H; cbn [run_gsteps wf_gsteps] in *.
  - inversion H; subst. exact HP.
  - destruct Hwf as [Hw Hrest]. destruct (grun s g) as [s1|] eqn:E; [|discriminate].
    exact (IH s1 _ s' v' (Hstep s v g s1 HP Hw E) (Hrest s1 eq_refl) H).
Qed.

Lemma g_step s v g s' : GInv s v -> wf_gstep s g -> grun s g = Some s' -> GInv s' (gview s s' g v) /\ lockpg s' = lockpg s.
Proof.
  intros HI Hwf H. destruct (ginv_basic s v HI) as [Hlk Hw]. apply grun_inv in H.
  destruct g as [h|zf acts c|o|q c| |f|f ok| |pages commit]; cbn [wf_gstep gview] in *.
  - destruct Hwf as [Hm Hws]. destruct (ginv_j s v HI Hm) as [HJ [Hf Hk]].
    destruct (j_step s h s' HJ Hws H) as [HJ' El]. split; [|exact El].
    destruct (run_group_nolog _ s s' (hops_jops s h) H) as [Ef Ek].
    unfold GInv. rewrite (j_mode s' HJ'). split; [exact HJ'|]. split; [congruence|exact (Ek Hk)].
  - destruct Hwf as [Hm [Hws Hres]]. destruct (ginv_j s v HI Hm) as [HJ [Hf _]].
    pose proof (Hres s' H) as Hm'.
    destruct (tx_step_any s zf acts c s' HJ Hws H Hm') as [HB [Hk [Et [_ El]]]]. split; [|exact El].
    pose proof (run_group_wal_file _ s s' (hops_jops s (HTx zf acts c)) H) as Hf'. rewrite Hf in Hf'.
    unfold GInv. rewrite Hm'. split; [apply wl_entry; [assumption|assumption|assumption|lia]|apply wk_entry; assumption].
  - destruct Hwf as [Hm Hwo]. destruct (ginv_w s v HI Hm) as [HW HK].
    destruct (wop2_step s v o s' HW HK Hwo H) as [HW' [HK' El]].
    split; [|exact El]. unfold GInv. rewrite (w_mode s' _ HW'). split; assumption.
  - destruct Hwf as [Hm [Hf Hq]]. destruct (ginv_w s v HI Hm) as [HW HK].
    destruct (leave_step s v q c s' HW HK Hf Hq H) as [HJ' [Hf' [Hk' El]]]. split; [|exact El].
    unfold GInv. rewrite (j_mode s' HJ'). split; [assumption|split; assumption].
  - exact (restart_step s s' Hlk Hw Hwf H).
  - destruct (refused s f); [subst s'; auto|exact (applied_step s v f s' HI Hwf H)].
  - destruct (fwd_refused s f ok); [subst s'; auto|exact (applied_step s v f s' HI Hwf H)].
  - exact (drop_step s v s' HI H).
  - exact (import_step s v pages commit s' HI Hwf H).
Qed.

Theorem g_history_invariant : forall gs s v s' v',
  GInv s v -> wf_gsteps s gs -> run_gsteps s v gs = Some (s', v') -> GInv s' v' /\ lockpg s' = lockpg s.
Proof.
  intros gs s v s' v' HI. apply (run_gsteps_ind (fun s1 v1 => GInv s1 v1 /\ lockpg s1 = lockpg s)); [|auto].
  intros s1 v1 g s2 [HI1 El] Hwf H. destruct (g_step s1 v1 g s2 HI1 Hwf H) as [A B]. split; [exact A|congruence].
Qed.

(* C04 for every history from an empty node made of these steps, in any order the journal mode allows: once something was
   committed, the position's checksum is the from-scratch checksum of the logical database - in rollback-journal mode the
   database file, in WAL mode the file at the switch (or at the last restart) overlaid with the frames - and LiteFS's
   per-page answer is that database's entry *)
Theorem g_history_checksum lock gs s' v' :
  1 <= lock -> wf_gsteps (init lock) gs -> run_gsteps (init lock) (fun _ => 0) gs = Some (s', v') ->
  lockpg s' = lock /\
  (wal_mode s' = false -> (txid s' <> 0 -> chk s' = scratch (fun p => if p =? lock then 0 else file_h s' p) (pageN s')) /\
                          (forall p, 1 <= p <= pageN s' -> p <> lock -> dbc s' p = file_h s' p)) /\
  (wal_mode s' = true -> chk s' = scratch (fun p => if p =? lock then 0 else v' p) (pageN s') /\
                         (forall p, 1 <= p <= pageN s' -> p <> lock -> eff s' (pageN s') [] p = v' p) /\
                         (wal_file s' = [] -> forall p, 1 <= p <= pageN s' -> p <> lock -> file_h s' p = v' p)).
Proof.
  intros Hl Hwf H.
  destruct (g_history_invariant gs (init lock) _ s' v' (ginv_init lock Hl) Hwf H) as [HI El]. change (lockpg (init lock)) with lock in El.
  split; [exact El|]. rewrite <- El. split; intros Hm.
  - destruct (ginv_j s' v' HI Hm) as [HJ _]. split; [exact (j_chk s' HJ)|exact (j_truth s' HJ)].
  - destruct (ginv_w s' v' HI Hm) as [HW HK]. exact (wal_answers s' v' HW HK).
Qed.

(* XOR / flag algebra over N used by the checksum proofs (C04 and friends). *)
From Coq Require Import NArith List Lia Bool.
Require Import LF.Gen.ConstsGen LF.Model.PageDB.
Import ListNotations.
Local Open Scope N_scope.

Lemma flag_bit n : N.testbit flag n = (n =? 63).
Proof.
  destruct (N.eqb_spec n 63) as [->|Hn]; [reflexivity|].
  change flag with (2 ^ 63). apply N.pow2_bits_false. congruence.
Qed.
(* from here on [flag] is used through [flag_bit] only *)
Global Opaque flag.

Definition xorl (l : list N) : N := fold_left N.lxor l 0.
Definition rstep (a x : N) : N := fl (N.lxor a x).
Definition rolling (acc : N) (l : list N) : N := fold_left rstep l acc.

Lemma fl_bits x n : N.testbit (fl x) n = (n =? 63) || N.testbit x n.
Proof. unfold fl. rewrite N.lor_spec, flag_bit. reflexivity. Qed.

Lemma fl_absorb a x : fl (N.lxor (fl a) x) = fl (N.lxor a x).
Proof.
  apply N.bits_inj; intros n. rewrite !fl_bits, !N.lxor_spec, fl_bits.
  destruct (n =? 63); [reflexivity|]. reflexivity.
Qed.
Lemma fl_absorb_r a x : fl (N.lxor a (fl x)) = fl (N.lxor a x).
Proof. rewrite (N.lxor_comm a (fl x)), fl_absorb, N.lxor_comm. reflexivity. Qed.
Lemma fl_idem x : fl (fl x) = fl x.
Proof. apply N.bits_inj; intros n. rewrite !fl_bits. destruct (n =? 63); reflexivity. Qed.
Lemma fl_nonzero x : fl x <> 0.
Proof.
  intros H. assert (N.testbit (fl x) 63 = true) as Hb by (rewrite fl_bits; reflexivity).
  rewrite H in Hb. cbn in Hb. discriminate.
Qed.

Lemma xorl_from l : forall a, fold_left N.lxor l a = N.lxor a (xorl l).
Proof.
  unfold xorl. induction l as [|x l IH]; intros a; cbn [fold_left].
  - rewrite N.lxor_0_r. reflexivity.
  - rewrite IH, (IH (N.lxor 0 x)), N.lxor_0_l, N.lxor_assoc. reflexivity.
Qed.
Lemma xorl_nil : xorl [] = 0. Proof. reflexivity. Qed.
Lemma xorl_cons x l : xorl (x :: l) = N.lxor x (xorl l).
Proof. unfold xorl at 1. cbn [fold_left]. rewrite xorl_from, N.lxor_0_l. reflexivity. Qed.

Lemma rolling_fl l : forall acc, l <> [] -> rolling acc l = fl (N.lxor acc (xorl l)).
Proof.
  unfold rolling. induction l as [|x l IH]; intros acc Hne; [congruence|]. cbn [fold_left].
  destruct l as [|y l].
  - cbn [fold_left]. unfold rstep. rewrite xorl_cons, xorl_nil, N.lxor_0_r. reflexivity.
  - rewrite IH by discriminate. unfold rstep at 1. rewrite fl_absorb, (xorl_cons x), N.lxor_assoc. reflexivity.
Qed.
Lemma rolling_app acc a b : rolling acc (a ++ b) = rolling (rolling acc a) b.
Proof. unfold rolling. apply fold_left_app. Qed.

Lemma rolling_cons acc x l : rolling acc (x :: l) = rolling (fl (N.lxor acc x)) l.
Proof. reflexivity. Qed.
Lemma rolling_zeros (f : N -> N) l : (forall x, In x l -> f x = 0) -> forall a, rolling (fl a) (map f l) = fl a.
Proof.
  induction l as [|x l IH]; intros H a; [reflexivity|]. cbn [map].
  rewrite rolling_cons, (H x (or_introl eq_refl)), N.lxor_0_r, fl_idem. apply IH. intros y Hy. apply H. right. exact Hy.
Qed.

Fixpoint seqN (a : N) (n : nat) : list N :=
  match n with O => [] | S n' => a :: seqN (a + 1) n' end.
Lemma upfrom_seqN : forall n a, upfrom a n = seqN a n.
Proof. induction n as [|n IH]; intros a; cbn [upfrom seqN]; [reflexivity|]. rewrite IH. reflexivity. Qed.
Lemma seqN_length a n : length (seqN a n) = n.
Proof. revert a; induction n as [|n IH]; intros a; cbn; [reflexivity|]. rewrite IH. reflexivity. Qed.
Lemma seqN_app a n m : seqN a (n + m) = seqN a n ++ seqN (a + N.of_nat n) m.
Proof.
  revert a; induction n as [|n IH]; intros a; cbn [seqN Nat.add app].
  - rewrite N.add_0_r. reflexivity.
  - rewrite IH. do 3 f_equal. lia.
Qed.
Lemma seqN_in a n x : In x (seqN a n) <-> a <= x < a + N.of_nat n.
Proof.
  revert a; induction n as [|n IH]; intros a; cbn [seqN In].
  - lia.
  - rewrite IH. lia.
Qed.

Lemma lt_ge1 a p : a < p -> 1 <= p.
Proof. lia. Qed.

Lemma blocksize_pos : 0 < c_ChecksumBlockSize.
Proof. vm_compute. reflexivity. Qed.

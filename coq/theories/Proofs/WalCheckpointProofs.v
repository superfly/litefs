(* C04 along histories, WAL commits and LiteFS's own checkpoint between them.  The log LiteFS keeps a picture of, its
   per-page WAL checksums and the database file stay tied to the logical database, so that copying the log back into the
   file and forgetting the WAL bookkeeping changes no answer. *)
From Coq Require Import NArith List Lia.
Require Import LF.Model.PageDB LF.Proofs.ChecksumProofs LF.Proofs.CaptureProofs LF.Proofs.HistoryProofs
  LF.Proofs.WalHistoryProofs.
Import ListNotations.
Local Open Scope N_scope.

(* reading the log: wal_committed with the uncommitted tail made visible *)
Fixpoint wal_scan (wf : list (N * pg * N)) (cur acc : list (N * pg)) (lastc : N) : list (N * pg) * list (N * pg) * N :=
  match wf with
  | [] => (cur, acc, lastc)
  | (p, q, c) :: r =>
    let cur' := aput p q cur in
    if c =? 0 then wal_scan r cur' acc lastc else wal_scan r [] (merge_latest cur' acc) c
  end.
Lemma wal_committed_scan : forall wf cur acc lc,
  wal_committed wf cur acc lc = (snd (fst (wal_scan wf cur acc lc)), snd (wal_scan wf cur acc lc)).
Proof.
  induction wf as [|[[p q] c] r IH]; intros cur acc lc; cbn [wal_committed wal_scan]; [reflexivity|].
  destruct (c =? 0); apply IH.
Qed.
Lemma wal_scan_app : forall a b cur acc lc,
  wal_scan (a ++ b) cur acc lc = let '(c, a', l) := wal_scan a cur acc lc in wal_scan b c a' l.
Proof.
  induction a as [|[[p q] c] r IH]; intros b cur acc lc; cbn [app wal_scan]; [reflexivity|].
  destruct (c =? 0); apply IH.
Qed.
Lemma wal_scan_body : forall fr cur acc lc,
  wal_scan (map (fun kv : N * pg => (fst kv, snd kv, 0)) fr) cur acc lc = (last_versions fr cur, acc, lc).
Proof.
  induction fr as [|[p q] r IH]; intros cur acc lc; cbn [map wal_scan last_versions fst snd]; [reflexivity|].
  rewrite N.eqb_refl. apply IH.
Qed.
Lemma last_versions_app : forall a b acc, last_versions (a ++ b) acc = last_versions b (last_versions a acc).
Proof. induction a as [|[p q] r IH]; intros b acc; cbn [app last_versions]; [reflexivity|apply IH]. Qed.

Lemma alookup_merge_latest : forall tx wl p, KeysNoDup tx ->
  alookup p (merge_latest tx wl) = match alookup p tx with Some q => Some q | None => alookup p wl end.
Proof. intros tx wl p Hnd. rewrite merge_latest_last_versions, alookup_last_versions, last_frame_nodup by exact Hnd. reflexivity. Qed.
Lemma alookup_last_versions_nil p frames : alookup p (last_versions frames ([] : list (N * pg))) = last_frame p frames.
Proof. rewrite alookup_last_versions. destruct (last_frame p frames); reflexivity. Qed.

Lemma fold_write_cache : forall pages s,
  (forall p q, In (p, q) pages -> 1 <= p) -> KeysNoDup pages -> 1 <= lockpg s -> CacheOK s -> LockZero s ->
  let s' := fold_left (fun a kv => write_db_page a (fst kv) (snd kv)) pages s in
  CacheOK s' /\ LockZero s' /\
  (forall x, 1 <= x -> dbc s' x = match alookup x pages with Some q => if x =? lockpg s then 0 else pg_h q | None => dbc s x end) /\
  (forall x, 1 <= x -> file_h s' x = match alookup x pages with Some q => pg_h q | None => file_h s x end).
Proof.
  induction pages as [|[p q] r IH]; intros s Hpos Hnd Hlk HC HL; cbn [fold_left fst snd].
  - cbn zeta. split; [exact HC|]. split; [exact HL|]. split; intros x Hx; reflexivity.
  - unfold KeysNoDup in Hnd. cbn [map fst] in Hnd. inversion Hnd as [|? ? Hn Hd]; subst.
    assert (1 <= p) as Hp by (apply (Hpos p q); left; reflexivity).
    destruct (write_db_page_cache s p q Hp Hlk HC HL) as [A1 [A2 [A9 A10]]].
    pose proof (proj2 (alookup_none_iff p r) Hn) as Hnone.
    destruct (IH (write_db_page s p q)) as [B1 [B2 [B9 B10]]]; [|exact Hd|exact Hlk|exact A1|exact A2|].
    { intros p' q' Hin. apply (Hpos p' q'). right. assumption. }
    cbn zeta in *. split; [exact B1|]. split; [exact B2|]. cbn [lockpg write_db_page set_page_chk with_file] in B9.
    split.
    + intros x Hx. rewrite (B9 x Hx), (A9 x Hx). cbn [alookup].
      destruct (N.eqb_spec x p) as [->|Hne]; [rewrite Hnone|]; reflexivity.
    + intros x Hx. rewrite (B10 x Hx), (A10 x Hx). cbn [alookup].
      destruct (N.eqb_spec x p) as [->|Hne]; [rewrite Hnone|]; reflexivity.
Qed.

Lemma fold_write_facts : forall pages s,
  (forall p q, In (p, q) pages -> 1 <= p) -> KeysNoDup pages -> 1 <= lockpg s -> CacheOK s -> LockZero s ->
  let s' := fold_left (fun a kv => write_db_page a (fst kv) (snd kv)) pages s in
  CacheOK s' /\ LockZero s' /\ lockpg s' = lockpg s /\ pageN s' = pageN s /\ writeable s' = writeable s /\
  wal_mode s' = wal_mode s /\ txid s' = txid s /\ chk s' = chk s /\
  (forall x, 1 <= x -> dbc s' x = match alookup x pages with Some q => if x =? lockpg s then 0 else pg_h q | None => dbc s x end) /\
  (forall x, 1 <= x -> file_h s' x = match alookup x pages with Some q => pg_h q | None => file_h s x end).
Proof.
  intros pages s Hpos Hnd Hlk HC HL. destruct (fold_write_cache pages s Hpos Hnd Hlk HC HL) as [B1 [B2 [B9 B10]]].
  destruct (frame_fold_write pages s). cbn zeta. repeat (split; [assumption|]). exact B10.
Qed.

Lemma truncate_db_facts s n : CacheOK s -> LockZero s -> 1 <= lockpg s ->
  let s' := truncate_db s n in
  CacheOK s' /\ LockZero s' /\ lockpg s' = lockpg s /\ writeable s' = writeable s /\ wal_mode s' = wal_mode s /\
  txid s' = txid s /\ chk s' = chk s /\
  (forall q, 1 <= q -> dbc s' q = if n <? q then 0 else dbc s q) /\
  (forall p, 1 <= p -> file_h s' p = if p <=? n then file_h s p else 0) /\ pageN s' = pageN s.
Proof.
  intros HC HL Hlk. destruct (truncate_db_spec s n HC HL Hlk) as [C [L [D [F _]]]].
  destruct (frame_truncate_db s n) as [W E P M _ _ _ _ T K _]. cbn zeta in *.
  repeat (split; [assumption|]). split; [|split; assumption].
  intros q Hq. rewrite (D q Hq). clear. destruct (N.ltb_spec n q), (N.leb_spec q n); try lia; reflexivity.
Qed.

Definition wscan (s : st) := wal_scan (wal_file s) [] [] 0.
Definition wpages (s : st) : list (N * pg) := snd (fst (wscan s)).       (* last committed version of every page in the log *)
(* a page whose database-file slot need not be current: the log holds it, or it lies beyond the database *)
Definition Cov (s : st) (x : N) : Prop := alookup x (wpages s) <> None \/ pageN s < x.

(* LiteFS's picture of the log, tied to the logical database [v]: a page of the database that the log holds ([wpages]: the
   last committed version of every page in it) answers from its WAL checksums, and that version is [v]'s (k_in, k_hash);
   every other page answers from the page cache, whose slot is then the file's (k_keys, k_truth; wk_not_in_log below puts
   the two together).  The rest says that the log ends at a commit naming the database size and is well formed. *)
Record WK (s : st) (v : N -> N) : Prop := {
  k_scan : fst (fst (wscan s)) = [];                                    (* the log ends at a commit *)
  k_last : wpages s <> [] -> snd (wscan s) = pageN s;
  k_hash : forall p q, alookup p (wpages s) = Some q -> p <= pageN s -> p <> lockpg s -> pg_h q = v p;
  k_keys : forall x, x <> lockpg s -> alookup x (wal_chk s) <> None -> Cov s x;
  k_truth : forall x, 1 <= x -> x <> lockpg s -> dbc s x = file_h s x \/ (dbc s x = 0 /\ Cov s x);
  k_empty : wpages s = [] -> wal_chk s = [];
  k_pos : forall p q, In (p, q) (wpages s) -> 1 <= p;
  k_nodup : KeysNoDup (wpages s);
  k_in : forall p q, alookup p (wpages s) = Some q -> p <= pageN s -> p <> lockpg s ->
                     exists l c, alookup p (wal_chk s) = Some l /\ last_or0 l = Some c
}.

Lemma wpages_nil_of_file s : wal_file s = [] -> wpages s = [].
Proof. intros H. unfold wpages, wscan. rewrite H. reflexivity. Qed.

Lemma wk_nolog s v : wal_file s = [] -> wal_chk s = [] ->
  (forall x, 1 <= x -> x <> lockpg s -> dbc s x = file_h s x \/ (dbc s x = 0 /\ pageN s < x)) -> WK s v.
Proof.
  intros Hf Hk Ht. pose proof (wpages_nil_of_file s Hf) as Hp.
  assert (Hs : wscan s = ([], [], 0)) by (unfold wscan; rewrite Hf; reflexivity).
  constructor; rewrite ?Hp, ?Hs, ?Hk.
  - reflexivity.
  - intros Hn. contradiction.
  - discriminate.
  - intros x _ Hx. contradiction Hx. reflexivity.
  - intros x Hx Hnl. destruct (Ht x Hx Hnl) as [E|[Z Hgt]]; [left; exact E|right; split; [exact Z|right; exact Hgt]].
  - reflexivity.
  - intros p q [].
  - constructor.
  - discriminate.
Qed.

Lemma wk_not_in_log s v p : WL s v -> WK s v -> 1 <= p <= pageN s -> p <> lockpg s -> alookup p (wpages s) = None ->
  dbc s p = v p /\ file_h s p = v p.
Proof.
  intros HW HK Hp Hnl Hnone.
  assert (~ Cov s p) as Hnc by (intros [Hc|Hc]; [contradiction|lia]).
  assert (dbc s p = v p) as Hv.
  { rewrite <- (w_view s v HW p Hp Hnl), eff_cases by (assumption || lia).
    destruct (alookup p (wal_chk s)) eqn:Ek; [|reflexivity]. destruct Hnc. apply (k_keys s v HK p Hnl). rewrite Ek. discriminate. }
  split; [exact Hv|]. destruct (k_truth s v HK p ltac:(lia) Hnl) as [E|[_ Cv]]; [congruence|contradiction].
Qed.

Lemma wk_file s v : WL s v -> WK s v -> wpages s = [] ->
  forall p, 1 <= p <= pageN s -> p <> lockpg s -> file_h s p = v p.
Proof. intros HW HK Ep p Hp Hnl. apply (wk_not_in_log s v p HW HK Hp Hnl). rewrite Ep. reflexivity. Qed.

Lemma wscan_eta s : fst (fst (wscan s)) = [] -> wscan s = ([], wpages s, snd (wscan s)).
Proof. unfold wpages. destruct (wscan s) as [[c a] l]. cbn [fst snd]. intros ->. reflexivity. Qed.

(* ... and what makes the appended log end at a commit again: the transaction has a frame, its commit frame names a size,
   pages count from 1 *)
Definition wf_wal2 (s : st) (frames : list (N * pg)) (commit : N) : Prop :=
  wf_wal s frames commit /\ frames <> [] /\ commit <> 0 /\ (forall p q, In (p, q) frames -> 1 <= p).

(* the log after a transaction is appended: its frames up to the commit frame are collected, the commit frame merges them in *)
Lemma wscan_commit s s' frames commit : fst (fst (wscan s)) = [] -> frames <> [] -> commit <> 0 ->
  wal_file s' = wal_file s ++ tx_frames frames commit ->
  wscan s' = ([], last_versions (last_versions frames []) (wpages s), commit).
Proof.
  intros Hs Hne Hc0 E. unfold wscan at 1. rewrite E, wal_scan_app. fold (wscan s). rewrite (wscan_eta s Hs). unfold tx_frames.
  destruct (exists_last Hne) as [fr0 [[p q] ->]].
  rewrite removelast_last, rev_unit, wal_scan_app, wal_scan_body. cbn [wal_scan].
  destruct (N.eqb_spec commit 0); [contradiction|]. rewrite last_versions_app, merge_latest_last_versions. reflexivity.
Qed.
Lemma wpages_commit s s' frames commit : fst (fst (wscan s)) = [] -> frames <> [] -> commit <> 0 ->
  wal_file s' = wal_file s ++ tx_frames frames commit ->
  forall x, alookup x (wpages s') = match last_frame x frames with Some q => Some q | None => alookup x (wpages s) end.
Proof.
  intros Hs Hne Hc0 E x. unfold wpages at 1. rewrite (wscan_commit s s' frames commit Hs Hne Hc0 E). cbn [fst snd].
  rewrite alookup_last_versions, last_frame_last_versions. reflexivity.
Qed.

Lemma k_step s v frames commit s' : WL s v -> WK s v -> wf_wal2 s frames commit ->
  op_commit_wal s frames commit = (Done, s') -> WK s' (overlay (lockpg s) frames commit v).
Proof.
  intros HW HK [Hwf [Hne [Hc0 Hpos]]] H. destruct HW as [Ww Wm Wl Wc Wz Wv Wt Wk].
  destruct HK as [Kscan Klast Khash Kkeys Ktruth Kempty Kpos Knodup Kin].
  destruct (commit_wal_gen s frames commit s' Wc Wz Wt H) as [new [_ [C1 [C2 [C3 [C4 [C5 [_ [C7 [C8 [C9 [C10 C11]]]]]]]]]]]].
  destruct (commit_wal_chk s frames commit s' Wc Wz Wt H) as [K1 _].
  pose proof (fun p => wf_wal_old s frames commit p Hwf) as Hold.
  pose proof (wscan_commit s s' frames commit Kscan Hne Hc0 C10) as Hscan.
  pose proof (wpages_commit s s' frames commit Kscan Hne Hc0 C10) as Hlook.
  assert (Hnd : KeysNoDup (wpages s')) by (unfold wpages; rewrite Hscan; apply last_versions_keys; exact Knodup).
  assert (Hcov : forall x, x <> lockpg s -> Cov s x -> Cov s' x).
  { intros x Hnl [Hin|Hgt]; unfold Cov; rewrite Hlook, C3.
    - left. destruct (last_frame x frames); [discriminate|exact Hin].
    - destruct (N.le_gt_cases x commit) as [Hle|Hg2]; [left|right; assumption].
      destruct (last_frame x frames) eqn:El; [discriminate|]. apply N.lt_nge in Hgt. destruct (Hgt (Hold x Hle Hnl El)). }
  assert (Hchk : forall p, p <= commit -> p <> lockpg s -> alookup p (wal_chk s') =
            match last_frame p frames with
            | Some q => Some ((match alookup p (wal_chk s) with Some l => l | None => [] end) ++ [pg_h q])
            | None => alookup p (wal_chk s)
            end).
  { intros p Hle Hnl. rewrite (K1 p Hle), tx_new_lookup.
    rewrite (proj2 (N.eqb_neq _ _) Hnl), (proj2 (N.leb_le _ _) Hle). cbn [negb andb].
    destruct (last_frame p frames); reflexivity. }
  constructor; rewrite ?C8, ?C3.
  - rewrite Hscan. reflexivity.
  - intros _. rewrite Hscan. reflexivity.
  - intros p q Hl Hle Hnl. rewrite Hlook in Hl. unfold overlay.
    rewrite (proj2 (N.eqb_neq _ _) Hnl), (proj2 (N.leb_le _ _) Hle). cbn [negb andb].
    destruct (last_frame p frames) as [q'|] eqn:El; [congruence|]. apply (Khash p q Hl); [apply Hold|]; assumption.
  - intros x Hnl Hx. destruct (N.le_gt_cases x commit) as [Hle|Hgt]; [|right; rewrite C3; assumption].
    rewrite (Hchk x Hle Hnl) in Hx. destruct (last_frame x frames) eqn:El.
    + left. rewrite Hlook, El. discriminate.
    + apply Hcov; [assumption|]. apply (Kkeys x Hnl). exact Hx.
  - intros x Hx Hnl. rewrite C5, (file_h_dbfile _ _ C11).
    destruct (Ktruth x Hx Hnl) as [E|[Z Cv]]; [left; exact E|right; split; [exact Z|apply Hcov; assumption]].
  - intros He. exfalso. destruct (exists_last Hne) as [fr0 [[p q] E]].
    assert (last_frame p frames <> None) as Hl by (apply (last_frame_some p q); subst; apply in_or_app; right; left; reflexivity).
    specialize (Hlook p). rewrite He in Hlook. cbn [alookup] in Hlook. destruct (last_frame p frames); [discriminate|contradiction].
  - intros p q Hin. apply (in_alookup_nodup p q _ Hnd) in Hin. rewrite Hlook in Hin.
    destruct (last_frame p frames) as [q'|] eqn:El.
    + injection Hin as ->. apply (Hpos p q), last_frame_in, El.
    + apply (Kpos p q), alookup_in, Hin.
  - exact Hnd.
  - intros p q Hl Hle Hnl. rewrite Hlook in Hl. rewrite (Hchk p Hle Hnl).
    destruct (last_frame p frames) as [q'|] eqn:El.
    + eexists. eexists. split; [reflexivity|apply last_or0_snoc].
    + apply (Kin p q Hl); [apply Hold|]; assumption.
Qed.

(* the WAL bookkeeping forgotten: no answer changes once the cache and the file both hold the logical database and the
   cache is empty beyond it *)
Lemma forget_log s sb v : WL s v -> Frame s sb -> CacheOK sb -> LockZero sb ->
  (forall p, 1 <= p <= pageN s -> p <> lockpg s -> dbc sb p = v p /\ file_h sb p = v p) ->
  (forall p, pageN s < p -> dbc sb p = 0) ->
  WL (with_wal sb [] [] []) v /\ WK (with_wal sb [] [] []) v.
Proof.
  intros [Ww Wm Wl Wc Wz Wv Wt Wk] [Fw Fl Fn Fm _ _ _ _ _ Fc _] HC HL Hd Ht. split.
  - constructor; cbn [writeable wal_mode lockpg pageN chk with_wal]; rewrite ?Fw, ?Fm, ?Fl, ?Fn, ?Fc; try assumption.
    + intros p Hp Hnl. rewrite eff_cases by (cbn [lockpg with_wal]; rewrite ?Fl; assumption || apply Hp).
      exact (proj1 (Hd p Hp Hnl)).
    + intros p Hp. left. exact (Ht p Hp).
  - apply wk_nolog; try reflexivity. cbn [lockpg pageN with_wal]. rewrite Fl, Fn. intros x Hx Hnl.
    destruct (N.le_gt_cases x (pageN s)) as [Hle|Hgt]; [|right; split; [exact (Ht x Hgt)|exact Hgt]].
    destruct (Hd x (conj Hx Hle) Hnl) as [A B]. left. exact (eq_trans A (eq_sym B)).
Qed.

(* the log copied into the database file, the file cut to the database size, the WAL bookkeeping forgotten: what both
   LiteFS's checkpoint and SQLite's complete one come to.  [l]: the pages copied - for every page of the database the
   log's last committed version, if it has one.  The logical database is the same, and it is now the file *)
Lemma flush_log s v l : WL s v -> WK s v ->
  (forall p q, In (p, q) l -> 1 <= p) -> KeysNoDup l ->
  (forall p, 1 <= p <= pageN s -> alookup p l = alookup p (wpages s)) ->
  let s' := with_wal (truncate_db (fold_left (fun a kv => write_db_page a (fst kv) (snd kv)) l s) (pageN s)) [] [] [] in
  WL s' v /\ WK s' v /\ lockpg s' = lockpg s /\ txid s' = txid s /\ pageN s' = pageN s /\
  (forall p, 1 <= p <= pageN s' -> p <> lockpg s' -> file_h s' p = v p).
Proof.
  intros HW HK Hpos Hnd Hlook.
  destruct (fold_write_cache l s Hpos Hnd (w_lk1 s v HW) (w_cache s v HW) (w_lz s v HW)) as [B1 [B2 [B9 B10]]].
  pose proof (frame_fold_write l s) as Fa.
  set (sa := fold_left (fun a kv => write_db_page a (fst kv) (snd kv)) l s) in *. cbn zeta in *.
  destruct (truncate_db_spec sa (pageN s) B1 B2 ltac:(rewrite (fr_lockpg _ _ Fa); apply (w_lk1 s v HW))) as [T1 [T2 [T8 [T9 _]]]].
  pose proof (frame_trans _ _ _ Fa (frame_truncate_db sa (pageN s))) as HF.
  set (sb := truncate_db sa (pageN s)) in *. cbn zeta in *.
  assert (Hd : forall p, 1 <= p <= pageN s -> p <> lockpg s -> dbc sb p = v p /\ file_h sb p = v p).
  { intros p Hp Hnl. rewrite T8, T9, B9, B10, (proj2 (N.leb_le _ _) (proj2 Hp)), (Hlook p Hp) by apply Hp.
    destruct (alookup p (wpages s)) as [q|] eqn:El; [|exact (wk_not_in_log s v p HW HK Hp Hnl El)].
    rewrite (proj2 (N.eqb_neq _ _) Hnl). split; exact (k_hash s v HK p q El (proj2 Hp) Hnl). }
  destruct (forget_log s sb v HW HF T1 T2 Hd) as [HW' HK'].
  { intros p Hp. rewrite T8, (proj2 (N.leb_gt _ _) Hp) by lia. reflexivity. }
  split; [exact HW'|]. split; [exact HK'|]. cbn [lockpg txid pageN with_wal].
  rewrite (fr_lockpg _ _ HF), (fr_txid _ _ HF), (fr_pageN _ _ HF). repeat split. intros p Hp Hnl. exact (proj2 (Hd p Hp Hnl)).
Qed.

Lemma with_pos_same s n : pageN s = n -> with_pos s n (wal_mode s) (txid s) (chk s) (ltxdir s) = s.
Proof. intros <-. destruct s. reflexivity. Qed.

Lemma ckpt_step s v s' : WL s v -> WK s v -> op_checkpoint s = (Done, s') ->
  WL s' v /\ WK s' v /\ lockpg s' = lockpg s /\ txid s' = txid s /\ pageN s' = pageN s /\
  (forall p, 1 <= p <= pageN s' -> p <> lockpg s' -> file_h s' p = v p).
Proof.
  intros HW HK H. unfold op_checkpoint in H. rewrite wal_committed_scan in H. fold (wscan s) in H. fold (wpages s) in H.
  destruct (wpages s) as [|x0 r0] eqn:Ep.
  - (* nothing committed in the log: no page answers from it *)
    inversion H; subst s'. clear H.
    destruct (forget_log s s v HW (frame_refl s) (w_cache s v HW) (w_lz s v HW)) as [HW' HK'].
    + intros p Hp Hnl. apply (wk_not_in_log s v p HW HK Hp Hnl). rewrite Ep. reflexivity.
    + intros p Hp. destruct (w_tail s v HW p Hp) as [Z|Hc]; [exact Z|]. rewrite (k_empty s v HK Ep) in Hc. contradiction Hc. reflexivity.
    + split; [exact HW'|]. split; [exact HK'|]. repeat split. apply (wk_file s v HW HK Ep).
  - rewrite <- Ep in H. assert (Hne : wpages s <> []) by (rewrite Ep; discriminate). clear Ep x0 r0.
    rewrite (k_last s v HK Hne) in H.
    destruct (flush_log s v (wpages s) HW HK (k_pos s v HK) (k_nodup s v HK) (fun p _ => eq_refl)) as [HW' [HK' [El [Et [En Hfile]]]]].
    cbn zeta in *. set (sb := truncate_db _ (pageN s)) in *. rewrite (with_pos_same sb (pageN s) En) in H. injection H as <-.
    repeat (split; [assumption|]). exact Hfile.
Qed.

(* the rollback-journal part of a history never touches LiteFS's picture of the log, and leaves no WAL checksums *)
Definition jop (o : op) : Prop :=
  match o with OZeroFill _ _ | OWrite _ _ | OTruncate _ | OCommitJournal _ | OCommitJournalFail _ => True | _ => False end.
Lemma jop_nolog s o s' : jop o -> step s o = (Done, s') -> wal_file s' = wal_file s /\ (wal_chk s = [] -> wal_chk s' = []).
Proof.
  destruct o; cbn [jop]; try contradiction; intros _ H.
  - cbn [step] in H. unfold op_write_page in H. destruct (negb (writeable s)); [discriminate|]. inversion H; subst.
    destruct (wal_mode s); auto.
  - destruct (op_truncate_inv s n s' H) as [_ ->].
    rewrite (fr_wal_file _ _ (frame_truncate_db s n)), (fr_wal_chk _ _ (frame_truncate_db s n)). auto.
  - destruct (step_commit_cases s commit s' H) as [[_ [_ ->]]|H']; [auto|].
    destruct (commit_journal_fields s commit s' H') as [_ [_ [_ [E F]]]]. auto.
  - inversion H; subst. auto.
  - inversion H; subst. auto.
Qed.
Lemma run_group_nolog ops s s' : Forall jop ops -> run_group s ops = (0, s') ->
  wal_file s' = wal_file s /\ (wal_chk s = [] -> wal_chk s' = []).
Proof.
  intros Hj. apply (run_group_ind (fun x => wal_file x = wal_file s /\ (wal_chk s = [] -> wal_chk x = [])) jop); [|exact Hj|auto].
  intros s0 o s1 Ho [A B] E. destruct (jop_nolog s0 o s1 Ho E) as [A' B']. split; [congruence|auto].
Qed.
Lemma run_group_wal_file ops s s' : Forall jop ops -> run_group s ops = (0, s') -> wal_file s' = wal_file s.
Proof. intros Hj H. apply (run_group_nolog ops s s' Hj H). Qed.
Lemma hops_jops s h : Forall jop (hops s h).
Proof.
  apply Forall_forall. intros o Hin. destruct h as [zf acts c|n]; cbn [hops] in Hin.
  - apply in_app_or in Hin. destruct Hin as [Hin|Hin].
    + unfold zf_ops in Hin. apply in_map_iff in Hin. destruct Hin as [kv [E _]]. subst o. exact I.
    + apply in_app_or in Hin. destruct Hin as [Hin|[E|[]]]; [|subst o; exact I].
      unfold act_ops in Hin. apply in_map_iff in Hin. destruct Hin as [a [E _]]. subst o. destruct a; exact I.
  - destruct Hin as [E|[]]. subst o. exact I.
Qed.
Lemma run_hsteps_wal_file : forall hs s s', run_hsteps s hs = Some s' -> wal_file s' = wal_file s.
Proof.
  induction hs as [|h r IH]; intros s s' H; cbn [run_hsteps] in H; [inversion H; reflexivity|].
  destruct (run_group s (hops s h)) as [code s1] eqn:E. destruct code; [|discriminate].
  rewrite (IH s1 s' H). apply (run_group_wal_file _ s s1 (hops_jops s h) E).
Qed.

Lemma wk_entry s : JB s -> wal_file s = [] -> wal_chk s = [] -> WK s (file_h s).
Proof.
  intros [A B C D E F G] Hf Hk. apply wk_nolog; [exact Hf|exact Hk|]. intros x Hx Hnl.
  destruct (N.le_gt_cases x (pageN s)) as [Hle|Hgt]; [left; apply E; [lia|assumption]|right; split; [apply F|]; assumption].
Qed.

Lemma switch_entry lock hs zf acts c s1 s2 :
  1 <= lock -> wf_hist (init lock) hs -> run_hsteps (init lock) hs = Some s1 ->
  wf_tx_any s1 zf acts -> run_group s1 (hops s1 (HTx zf acts c)) = (0, s2) -> wal_mode s2 = true ->
  WL s2 (file_h s2) /\ WK s2 (file_h s2) /\ lockpg s2 = lock /\ wal_file s2 = [].
Proof.
  intros Hl Hwf H1 Hsw H2 Hm.
  destruct (journal_history_invariant hs (init lock) s1 (j_init lock Hl) Hwf H1) as [HJ El1].
  pose proof (run_group_wal_file _ s1 s2 (hops_jops s1 (HTx zf acts c)) H2) as Hf.
  rewrite (run_hsteps_wal_file hs (init lock) s1 H1) in Hf.
  destruct (tx_step_any s1 zf acts c s2 HJ Hsw H2 Hm) as [HB [Hk [Et [_ El2]]]].
  split; [apply wl_entry; [assumption|assumption|assumption|rewrite Et, N.add_1_r; apply N.neq_succ_0]|]. split; [exact (wk_entry s2 HB Hf Hk)|].
  split; [rewrite El2; exact El1|exact Hf].
Qed.

(* what C04 asks for in WAL mode, read off the invariants *)
Lemma wal_answers s v : WL s v -> WK s v ->
  chk s = scratch (fun p => if p =? lockpg s then 0 else v p) (pageN s) /\
  (forall p, 1 <= p <= pageN s -> p <> lockpg s -> eff s (pageN s) [] p = v p) /\
  (wal_file s = [] -> forall p, 1 <= p <= pageN s -> p <> lockpg s -> file_h s p = v p).
Proof.
  intros HW HK. split; [exact (w_chk s v HW)|]. split; [exact (w_view s v HW)|].
  intros Hf. exact (wk_file s v HW HK (wpages_nil_of_file s Hf)).
Qed.

Inductive wop :=
| WCommit (fr : list (N * pg)) (c : N)      (* a committed WAL transaction: its frames in write order, the size in the commit frame *)
| WCheckpoint.                              (* LiteFS copies its log into the database file and forgets it *)
Definition wop_run (s : st) (o : wop) : outcome * st :=
  match o with WCommit fr c => op_commit_wal s fr c | WCheckpoint => op_checkpoint s end.
Definition wop_view (lock : N) (o : wop) (v : N -> N) : N -> N :=
  match o with WCommit fr c => overlay lock fr c v | WCheckpoint => v end.
Definition wf_wop (s : st) (o : wop) : Prop :=
  match o with WCommit fr c => wf_wal2 s fr c | WCheckpoint => True end.
Fixpoint run_wops (s : st) (v : N -> N) (os : list wop) : option (st * (N -> N)) :=
  match os with
  | [] => Some (s, v)
  | o :: r => match wop_run s o with (Done, s') => run_wops s' (wop_view (lockpg s) o v) r | _ => None end
  end.
Fixpoint wf_wops (s : st) (os : list wop) : Prop :=
  match os with
  | [] => True
  | o :: r => wf_wop s o /\ forall s', wop_run s o = (Done, s') -> wf_wops s' r
  end.

Lemma wop_step s v o s' : WL s v -> WK s v -> wf_wop s o -> wop_run s o = (Done, s') ->
  WL s' (wop_view (lockpg s) o v) /\ WK s' (wop_view (lockpg s) o v) /\ lockpg s' = lockpg s.
Proof.
  intros HW HK Hw E. destruct o as [fr c|]; cbn [wop_run wop_view wf_wop] in *.
  - destruct (w_step s v fr c s' HW (proj1 Hw) E) as [A [Bq _]]. split; [exact A|]. split; [|exact Bq].
    apply (k_step s v fr c s' HW HK Hw E).
  - destruct (ckpt_step s v s' HW HK E) as [A [Bq [C _]]]. auto.
Qed.

Theorem wal_ckpt_history_invariant : forall os s v s' v',
  WL s v -> WK s v -> wf_wops s os -> run_wops s v os = Some (s', v') -> WL s' v' /\ WK s' v' /\ lockpg s' = lockpg s.
Proof.
  induction os as [|o r IH]; intros s v s' v' HW HK Hwf H; cbn [run_wops wf_wops] in *.
  - inversion H; subst. auto.
  - destruct Hwf as [Hw Hrest]. destruct (wop_run s o) as [oc s1] eqn:E. destruct oc; try discriminate.
    destruct (wop_step s v o s1 HW HK Hw E) as [HW1 [HK1 El1]].
    destruct (IH s1 _ s' v' HW1 HK1 (Hrest s1 eq_refl) H) as [HW' [HK' El']]. split; [exact HW'|]. split; [exact HK'|congruence].
Qed.

(* C04 for every history of this shape from an empty node: any rollback-journal history; the transaction that switches to WAL
   mode; then WAL commits and LiteFS checkpoints in any order and number *)
Theorem wal_ckpt_history_checksum lock hs zf acts c os s1 s2 s' v' :
  1 <= lock -> wf_hist (init lock) hs -> run_hsteps (init lock) hs = Some s1 ->
  wf_tx_any s1 zf acts -> run_group s1 (hops s1 (HTx zf acts c)) = (0, s2) -> wal_mode s2 = true ->
  wf_wops s2 os -> run_wops s2 (file_h s2) os = Some (s', v') ->
  chk s' = scratch (fun p => if p =? lock then 0 else v' p) (pageN s') /\
  (forall p, 1 <= p <= pageN s' -> p <> lock -> eff s' (pageN s') [] p = v' p) /\
  (wal_file s' = [] -> forall p, 1 <= p <= pageN s' -> p <> lock -> file_h s' p = v' p) /\ lockpg s' = lock.
Proof.
  intros Hl Hwf H1 Hsw H2 Hm Hww H3.
  destruct (switch_entry lock hs zf acts c s1 s2 Hl Hwf H1 Hsw H2 Hm) as [HW [HK [El2 _]]].
  destruct (wal_ckpt_history_invariant os s2 (file_h s2) s' v' HW HK Hww H3) as [HW' [HK' El']].
  rewrite El2 in El'. rewrite <- El'. split; [|split; [|split; [|reflexivity]]]; apply (wal_answers s' v' HW' HK').
Qed.

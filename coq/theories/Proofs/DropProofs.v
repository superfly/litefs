(* C15: drop, tombstone apply, restart after drop, recreation. *)
From Coq Require Import NArith List.
Require Import LF.Model.PageDB LF.Proofs.ChecksumProofs LF.Proofs.CaptureProofs LF.Proofs.ChainProofs.
Import ListNotations.
Local Open Scope N_scope.

Definition tombstone (f : ltxrec) : Prop := l_commit f = 0 /\ l_pages f = [] /\ l_post f = flag.

Lemma drop_exact s s' :
  op_drop s = (Done, s') ->
  exists f, ltxdir s' = ltxdir s ++ [f] /\ tombstone f /\ l_min f = txid s + 1 /\ l_max f = txid s + 1 /\ l_pre f = chk s /\
            txid s' = txid s + 1 /\ chk s' = flag /\ pageN s' = 0 /\ dbfile s' = [] /\ wal_file s' = [] /\ wal_mode s' = false.
Proof.
  intros H. destruct (op_drop_inv s s' H) as [_ ->]. eexists. cbn. repeat split; reflexivity.
Qed.

Lemma apply_tombstone s f fatal :
  tombstone f -> exists s', op_apply s f fatal = (Done, s') /\
    txid s' = l_max f /\ chk s' = flag /\ pageN s' = 0 /\ dbfile s' = [] /\ wal_file s' = [] /\ ltxdir s' = ltxdir s.
Proof.
  intros [Hc [Hp Hpost]]. rewrite op_apply_eq. unfold apply_pre. rewrite Hc, Hp, Hpost. cbn [fold_left N.eqb].
  unfold checksum. cbn [N.eqb]. rewrite N.eqb_refl. eexists. split; [reflexivity|]. cbn. repeat split; reflexivity.
Qed.

Theorem receive_tombstone s f :
  tombstone f -> is_snapshot f = false -> extends_pos s f = true ->
  exists s', op_receive s f = (Done, s') /\ txid s' = l_max f /\ chk s' = flag /\ pageN s' = 0 /\ dbfile s' = [] /\ wal_file s' = [].
Proof.
  intros Ht Hs He. unfold op_receive. rewrite Hs, He. cbn [negb andb].
  destruct (apply_tombstone (with_dir s (ltxdir s ++ [f])) f true Ht) as [s' [E [A [B [C [D [F _]]]]]]].
  exists s'. repeat split; assumption.
Qed.

Lemma open_after_tombstone s d f :
  dbfile s = [] -> wal_file s = [] -> ltxdir s = d ++ [f] -> tombstone f ->
  exists s'', op_open s = (Done, s'') /\ txid s'' = l_max f /\ chk s'' = flag /\ pageN s'' = 0 /\ dbfile s'' = [] /\ ltxdir s'' = ltxdir s.
Proof.
  intros H1 H2 H3 Ht. unfold op_open, op_checkpoint, file_hdr. cbn [dbfile wal_file]. rewrite H1, H2.
  cbn [wal_committed with_wal dbfile ltxdir lockpg].
  cbn [firstn map app repeat N.to_nat length Nat.sub lenN].
  rewrite H3, rev_app_distr. cbn [rev app].
  match goal with |- context [op_apply ?x f false] => destruct (apply_tombstone x f false Ht) as [s2 [E [A [B [C [D [_ G]]]]]]] end.
  exists s2. split; [exact E|]. cbn [ltxdir] in G. repeat split; try assumption.
Qed.

Theorem drop_survives_restart s s' :
  op_drop s = (Done, s') ->
  exists s'', op_open s' = (Done, s'') /\ txid s'' = txid s' /\ chk s'' = flag /\ pageN s'' = 0 /\ dbfile s'' = [] /\ ltxdir s'' = ltxdir s'.
Proof.
  intros H. destruct (drop_exact s s' H) as [f [Ed [Ht [Emin [Emax [Epre [Etx [Echk [EpN [Efile [Ewal Emode]]]]]]]]]]].
  destruct (open_after_tombstone s' (ltxdir s) f Efile Ewal Ed Ht) as [s2 [E [A [B [C [D G]]]]]].
  exists s2. repeat split; try assumption. congruence.
Qed.

Theorem recreate_continues s commit s' :
  chk s = flag -> op_commit_journal s commit = (Done, s') ->
  exists f, ltxdir s' = ltxdir s ++ [f] /\ l_min f = txid s + 1 /\ l_max f = txid s + 1 /\ l_pre f = flag /\ txid s' = txid s + 1.
Proof.
  intros Hc H. destruct (commit_journal_file s commit s' H) as [f [E1 [E2 [E3 [E4 _]]]]].
  exists f. repeat split; try assumption; [congruence|apply (commit_journal_pos s commit s' H)].
Qed.
